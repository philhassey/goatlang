(* C16, part 2: the ORDER in which the hoistable declarations of one level (struct types,
   methods, functions) are written -- and therefore executed, treeSort being stable inside a
   level (C16_sort.v) -- does not matter to the VM.

   Over the reload machine of Model/Reload.v: for signatures S, S' whose stypes / smethods /
   sfuncs are permutations of each other and whose svars agree (variables are NOT hoisted and
   keep their order), running version_of S B and version_of S' B from the empty VM -- and more
   generally from any VM reached by loading earlier (permuted) versions of the package --
   either both fail or both succeed, and then the two final states are ISOMORPHIC: there are
   permutations rf of the function addresses and rt of the type addresses under which
   function objects, type objects (fields as lists, methods as finite maps: the order of the
   method association list DOES depend on the order of execution), instances, globals
   (as a finite map read through gget, where an absent key reads nil: the order of the
   association list depends on the order of execution) and host slots correspond.
   Isomorphic states cannot be told apart by any history of loads, stores, calls and
   identity tests (c16_commute_run).

   One hypothesis is needed beyond wf_sig: the constants a declaration carries (default field
   values of a struct type, zero values of `var x T`) are scalars (nil or integers), which is
   what ZERO ty produces.  The model's instruction type also allows a raw function / type
   address there, and a raw address is not invariant under the renaming: see
   Example.c16_needs_scalar at the end for the concrete counterexample.
   wf_sig S' is implied by wf_sig S and the permutations (wf_sig_perm); it is kept as a
   hypothesis only to make the statements symmetric.

   The route.  Ren: how a pair of address renamings acts on values and objects; state_iso.
   IsoSteps / Sim: every operation of the machine respects an isomorphism (sim_exec_instr).
   closed: no stored address points beyond the heaps, so a renaming that moves only the two
   cells allocated last fixes the rest of the state (closed_fixed); this gives iso_swap_funcs /
   iso_swap_types, the allocate/allocate case.  swap_keyed: two declarations of different keys
   commute on the nose unless both allocate; swap_FF / swap_TT / swap_MM (two functions, two
   struct types, two methods) settle that case, the run_*_alloc / run_*_overwrite equations
   giving what each instruction does in it.  perm_exec: by induction on Permutation, adjacent
   swaps composed through state_iso_trans; commute_fwd puts the three levels of a version together.
 *)
From Coq Require Import ZArith List Bool Lia Permutation.
From GV Require Import Model.Reload Proofs.C17_base Proofs.C17_reload.
Import ListNotations.
Open Scope nat_scope.


(* a permutation of nat that moves addresses below n only *)
Definition renaming (n : nat) (r : addr -> addr) : Prop :=
  (forall a, a < n -> r a < n) /\ (forall a, n <= a -> r a = a) /\ (forall a b, r a = r b -> a = b).

Lemma renaming_id : forall n, renaming n (fun a => a).
Proof. intros. repeat split; auto. Qed.
Lemma renaming_mono : forall n m r, n <= m -> renaming n r -> renaming m r.
Proof.
  intros n m r LE (B & I & J). repeat split; auto.
  - intros a LT. destruct (Nat.lt_ge_cases a n) as [H|H].
    + specialize (B a H). lia.
    + rewrite I by auto. auto.
  - intros a H. apply I. lia.
Qed.
Lemma renaming_comp : forall n r1 r2, renaming n r1 -> renaming n r2 -> renaming n (fun a => r2 (r1 a)).
Proof.
  intros n r1 r2 (B1 & I1 & J1) (B2 & I2 & J2). repeat split; auto.
  - intros a H. rewrite I1 by auto. auto.
Qed.
Lemma renaming_fix : forall n r a, renaming n r -> n <= a -> r a = a.
Proof. intros n r a (_ & I & _). auto. Qed.
Lemma renaming_lt : forall n r a, renaming n r -> a < n -> r a < n.
Proof. intros n r a (B & _). auto. Qed.
Lemma renaming_inj : forall n r a b, renaming n r -> r a = r b -> a = b.
Proof. intros n r a b (_ & _ & J). auto. Qed.
Lemma renaming_neq : forall n r a b, renaming n r -> a <> b -> r a <> r b.
Proof. intros n r a b R N E. apply N. eapply renaming_inj; eauto. Qed.
Lemma renaming_eqb : forall n r a b, renaming n r -> (r a =? r b) = (a =? b).
Proof.
  intros n r a b R. destruct (Nat.eqb_spec a b) as [->|N]; [apply Nat.eqb_refl|].
  apply Nat.eqb_neq. eapply renaming_neq; eauto.
Qed.

Lemma renaming_none : forall {A B} n r (h : list A) (h' : list B) a, renaming n r -> length h = n -> length h' = n ->
  nth_error h a = None -> nth_error h' (r a) = None.
Proof.
  intros A B n r h h' a R L L' N. apply nth_error_None in N. apply nth_error_None.
  rewrite (renaming_fix _ _ _ R) by lia. lia.
Qed.

(* a renaming is onto: together with injectivity, a bijection of the addresses below n *)
Lemma renaming_surj : forall n r, renaming n r -> forall b, exists a, r a = b /\ (b < n -> a < n).
Proof.
  intros n r (B & I & J) b. destruct (Nat.lt_ge_cases b n) as [LT|GE].
  - destruct (proj1 (FinFun.bInjective_bSurjective B) (fun x y _ _ => J x y) b LT) as (a & L & E). eauto.
  - exists b. split; [auto | lia].
Qed.

(* the transposition of p and q *)
Definition swp (p q a : addr) : addr := if a =? p then q else if a =? q then p else a.
Lemma swp_l : forall p q, swp p q p = q.
Proof. intros. unfold swp. now rewrite Nat.eqb_refl. Qed.
Lemma swp_r : forall p q, swp p q q = p.
Proof. intros. unfold swp. rewrite Nat.eqb_refl. now destruct (Nat.eqb_spec q p). Qed.
Lemma swp_other : forall p q a, a <> p -> a <> q -> swp p q a = a.
Proof. intros. unfold swp. destruct (Nat.eqb_spec a p); [lia|]. destruct (Nat.eqb_spec a q); [lia | reflexivity]. Qed.
Lemma swp_invol : forall p q a, swp p q (swp p q a) = a.
Proof.
  intros p q a. destruct (Nat.eq_dec a p) as [->|NP]; [now rewrite swp_l, swp_r|].
  destruct (Nat.eq_dec a q) as [->|NQ]; [now rewrite swp_r, swp_l|]. now rewrite !(swp_other p q a).
Qed.
Lemma renaming_swp : forall n p q, p < n -> q < n -> renaming n (swp p q).
Proof.
  intros n p q P Q. repeat split.
  - intros a H. unfold swp. destruct (a =? p); auto. destruct (a =? q); auto.
  - intros a H. apply swp_other; lia.
  - intros a b E. rewrite <- (swp_invol p q a), E. apply swp_invol.
Qed.

Section Ren.
  Variables rf rt : addr -> addr.

  Definition rv (v : val) : val :=
    match v with VFunc a => VFunc (rf a) | VType a => VType (rt a) | _ => v end.
  Definition rkv (l : list (name * val)) : list (name * val) := map (fun kv => (fst kv, rv (snd kv))) l.
  Definition rfobj (x : fobj) : fobj := match x with FBody b => FBody b | FBound r f => FBound r (rf f) end.
  Definition rinst (o : iobj) : iobj := mkInst (rt (ity o)) (rkv (ifields o)).
  (* l' is l with its values renamed, as a finite map *)
  Definition maps_to (l l' : list (name * val)) : Prop := forall k, lookup k l' = option_map rv (lookup k l).
  Definition ty_rel (ty ty' : tyobj) : Prop := tfields ty' = rkv (tfields ty) /\ maps_to (tmethods ty) (tmethods ty').

  Lemma lookup_rkv : forall k l, lookup k (rkv l) = option_map rv (lookup k l).
  Proof. induction l as [|[k' v] r IH]; simpl; auto. destruct (k =? k')%Z; auto. Qed.
  Lemma rkv_upsert : forall k v l, upsert k (rv v) (rkv l) = rkv (upsert k v l).
  Proof. induction l as [|[k' v'] r IH]; simpl; auto. destruct (k =? k')%Z; simpl; auto. now rewrite IH. Qed.
  Lemma rkv_assign : forall k v l, assign k (rv v) (rkv l) = rkv (assign k v l).
  Proof. induction l as [|[k' v'] r IH]; simpl; auto. destruct (k =? k')%Z; simpl; auto. now rewrite IH. Qed.
  Lemma rkv_set_fields : forall vs l, set_fields (rkv l) (rkv vs) = rkv (set_fields l vs).
  Proof.
    unfold set_fields. induction vs as [|[k v] r IH]; simpl; intros; auto.
    rewrite rkv_assign. apply IH.
  Qed.
  Lemma maps_to_upsert : forall k v l l', maps_to l l' -> maps_to (upsert k v l) (upsert k (rv v) l').
  Proof.
    intros k v l l' M k'. destruct (Z.eq_dec k' k).
    - subst. now rewrite !lookup_upsert_same.
    - rewrite !lookup_upsert_other by auto. apply M.
  Qed.
  Lemma is_nil_rv : forall v, is_nil (rv v) = is_nil v.
  Proof. destruct v; reflexivity. Qed.
End Ren.

Definition scalar (v : val) : Prop := match v with VNil | VInt _ => True | _ => False end.
Definition kv_scalar (l : list (name * val)) : Prop := Forall (fun kv => scalar (snd kv)) l.
(* the constants an instruction carries are scalars *)
Definition iscalar (i : instr) : Prop :=
  match i with
  | GlobalStruct _ fs => kv_scalar fs
  | GlobalZero _ z => scalar z
  | _ => True
  end.
Lemma rv_scalar : forall rf rt v, scalar v -> rv rf rt v = v.
Proof. destruct v; simpl; tauto. Qed.
Lemma rkv_scalar : forall rf rt l, kv_scalar l -> rkv rf rt l = l.
Proof.
  induction l as [|[k v] r IH]; simpl; intros H; auto. inv H. simpl in *.
  rewrite rv_scalar by auto. now rewrite IH.
Qed.

Lemma ty_rel_scalar : forall rf rt fs, kv_scalar fs -> ty_rel rf rt (mkTy fs []) (mkTy fs []).
Proof. intros. split; simpl; [now rewrite rkv_scalar | intro; reflexivity]. Qed.

Lemma rv_id : forall v, rv (fun a => a) (fun a => a) v = v.
Proof. destruct v; reflexivity. Qed.
Lemma rkv_id : forall l, rkv (fun a => a) (fun a => a) l = l.
Proof. induction l as [|[k v] r IH]; simpl; auto. now rewrite rv_id, IH. Qed.
Lemma rfobj_id : forall x, rfobj (fun a => a) x = x.
Proof. destruct x; reflexivity. Qed.
Lemma rv_comp : forall f1 t1 f2 t2 v, rv f2 t2 (rv f1 t1 v) = rv (fun a => f2 (f1 a)) (fun a => t2 (t1 a)) v.
Proof. destruct v; reflexivity. Qed.
Lemma rkv_comp : forall f1 t1 f2 t2 l, rkv f2 t2 (rkv f1 t1 l) = rkv (fun a => f2 (f1 a)) (fun a => t2 (t1 a)) l.
Proof. intros. unfold rkv. rewrite map_map. apply map_ext. intros [k v]. simpl. now rewrite rv_comp. Qed.
Lemma rfobj_comp : forall f1 f2 x, rfobj f2 (rfobj f1 x) = rfobj (fun a => f2 (f1 a)) x.
Proof. destruct x; reflexivity. Qed.


(* st' is st with function addresses renamed by rf and type addresses by rt.
   Instances are only allocated by the (unpermuted) variable initialisers and by the host, in
   the same order on both sides: their addresses coincide. *)
Record state_iso (rf rt : addr -> addr) (st st' : state) : Prop := {
  iso_rf : renaming (length (funcs st)) rf;
  iso_rt : renaming (length (types st)) rt;
  iso_flen : length (funcs st') = length (funcs st);
  iso_tlen : length (types st') = length (types st);
  iso_funcs : forall a x, nth_error (funcs st) a = Some x -> nth_error (funcs st') (rf a) = Some (rfobj rf x);
  iso_types : forall a ty, nth_error (types st) a = Some ty ->
                exists ty', nth_error (types st') (rt a) = Some ty' /\ ty_rel rf rt ty ty';
  iso_insts : insts st' = map (rinst rf rt) (insts st);
  iso_globals : forall n, gget st' n = rv rf rt (gget st n);
  iso_slots : slots st' = map (rv rf rt) (slots st)
}.

Lemma ty_rel_id : forall ty, ty_rel (fun a => a) (fun a => a) ty ty.
Proof.
  intros. split. now rewrite rkv_id. intro k. destruct (lookup k (tmethods ty)); simpl; auto. now rewrite rv_id.
Qed.

Lemma state_iso_refl : forall st, state_iso (fun a => a) (fun a => a) st st.
Proof.
  intros. split; auto using renaming_id.
  - intros. now rewrite rfobj_id.
  - intros. exists ty. split; auto. apply ty_rel_id.
  - rewrite <- (map_id (insts st)) at 1. apply map_ext. intros [t f]. unfold rinst. simpl. now rewrite rkv_id.
  - intros. now rewrite rv_id.
  - rewrite <- (map_id (slots st)) at 1. apply map_ext. intros. now rewrite rv_id.
Qed.

Lemma state_iso_trans : forall f1 t1 f2 t2 a b c, state_iso f1 t1 a b -> state_iso f2 t2 b c ->
  state_iso (fun x => f2 (f1 x)) (fun x => t2 (t1 x)) a c.
Proof.
  intros f1 t1 f2 t2 a b c H1 H2. destruct H1, H2. split.
  - apply renaming_comp; auto. now rewrite <- iso_flen0.
  - apply renaming_comp; auto. now rewrite <- iso_tlen0.
  - congruence.
  - congruence.
  - intros x o N. apply iso_funcs0 in N. apply iso_funcs1 in N. now rewrite rfobj_comp in N.
  - intros x ty N. apply iso_types0 in N. destruct N as (ty1 & N & F1 & M1).
    apply iso_types1 in N. destruct N as (ty2 & N & F2 & M2). exists ty2. split; auto. split.
    + now rewrite F2, F1, rkv_comp.
    + intro k. rewrite M2, M1. destruct (lookup k (tmethods ty)); simpl; auto. now rewrite rv_comp.
  - rewrite iso_insts1, iso_insts0, map_map. apply map_ext. intros [t f]. unfold rinst. simpl. now rewrite rkv_comp.
  - intros. now rewrite iso_globals1, iso_globals0, rv_comp.
  - rewrite iso_slots1, iso_slots0, map_map. apply map_ext. intros. now rewrite rv_comp.
Qed.

Section IsoSteps.
  Variables rf rt : addr -> addr.
  Variables st st' : state.
  Hypothesis I : state_iso rf rt st st'.

  Lemma iso_flen_fix : rf (length (funcs st)) = length (funcs st').
  Proof. rewrite (iso_flen _ _ _ _ I). eapply renaming_fix. apply (iso_rf _ _ _ _ I). lia. Qed.
  Lemma iso_tlen_fix : rt (length (types st)) = length (types st').
  Proof. rewrite (iso_tlen _ _ _ _ I). eapply renaming_fix. apply (iso_rt _ _ _ _ I). lia. Qed.

  Lemma iso_alloc_func : forall x,
    state_iso rf rt (set_funcs st (funcs st ++ [x])) (set_funcs st' (funcs st' ++ [rfobj rf x])).
  Proof.
    intros x. pose proof iso_flen_fix as FX. destruct I. split; simpl; auto.
    - rewrite app_length. simpl. eapply renaming_mono; [|eauto]. lia.
    - rewrite !app_length. simpl. lia.
    - intros a o N. apply nth_app1_cases in N. destruct N as [N|[-> ->]].
      + apply iso_funcs0 in N. now apply nth_app_old.
      + rewrite FX. apply nth_app_new.
  Qed.

  Lemma iso_upd_func : forall a x, a < length (funcs st) ->
    state_iso rf rt (set_funcs st (upd (funcs st) a x)) (set_funcs st' (upd (funcs st') (rf a) (rfobj rf x))).
  Proof.
    intros a x LT. destruct I. split; simpl; auto.
    - now rewrite upd_length.
    - now rewrite !upd_length.
    - intros a0 o N. destruct (Nat.eq_dec a a0).
      + subst a0. rewrite nth_upd_same in N by auto. inv N. apply nth_upd_same.
        rewrite iso_flen0. eapply renaming_lt; eauto.
      + rewrite nth_upd_other in N by auto. rewrite nth_upd_other; auto. eapply renaming_neq; eauto.
  Qed.

  Lemma iso_gset : forall n v, state_iso rf rt (gset st n v) (gset st' n (rv rf rt v)).
  Proof.
    intros n v. destruct I. split; simpl; auto.
    intros k. destruct (Z.eq_dec k n).
    - subst. now rewrite !gget_gset_same.
    - rewrite !gget_gset_other by auto. auto.
  Qed.

  Lemma iso_alloc_type : forall ty ty', ty_rel rf rt ty ty' ->
    state_iso rf rt (set_types st (types st ++ [ty])) (set_types st' (types st' ++ [ty'])).
  Proof.
    intros ty ty' R. pose proof iso_tlen_fix as FX. destruct I. split; simpl; auto.
    - rewrite app_length. simpl. eapply renaming_mono; [|eauto]. lia.
    - rewrite !app_length. simpl. lia.
    - intros a o N. apply nth_app1_cases in N. destruct N as [N|[-> ->]].
      + apply iso_types0 in N. destruct N as (o' & N & R'). exists o'. split; auto. now apply nth_app_old.
      + rewrite FX. exists ty'. split; auto. apply nth_app_new.
  Qed.

  Lemma iso_upd_type : forall a ty ty', a < length (types st) -> ty_rel rf rt ty ty' ->
    state_iso rf rt (set_types st (upd (types st) a ty)) (set_types st' (upd (types st') (rt a) ty')).
  Proof.
    intros a ty ty' LT R. destruct I. split; simpl; auto.
    - now rewrite upd_length.
    - now rewrite !upd_length.
    - intros a0 o N. destruct (Nat.eq_dec a a0).
      + subst a0. rewrite nth_upd_same in N by auto. inv N. exists ty'. split; auto. apply nth_upd_same.
        rewrite iso_tlen0. eapply renaming_lt; eauto.
      + rewrite nth_upd_other in N by auto. apply iso_types0 in N. destruct N as (o' & N & R').
        exists o'. split; auto. rewrite nth_upd_other; auto. eapply renaming_neq; eauto.
  Qed.

  Lemma iso_alloc_inst : forall o,
    state_iso rf rt (set_insts st (insts st ++ [o])) (set_insts st' (insts st' ++ [rinst rf rt o])).
  Proof.
    intros o. destruct I. split; simpl; auto. rewrite map_app. simpl. now rewrite iso_insts0.
  Qed.

  Lemma iso_upd_inst : forall i o,
    state_iso rf rt (set_insts st (upd (insts st) i o)) (set_insts st' (upd (insts st') i (rinst rf rt o))).
  Proof.
    intros i o. destruct I. split; simpl; auto. rewrite map_upd. now rewrite iso_insts0.
  Qed.

  Lemma iso_push_slot : forall v,
    state_iso rf rt (set_slots st (slots st ++ [v])) (set_slots st' (slots st' ++ [rv rf rt v])).
  Proof.
    intros v. destruct I. split; simpl; auto. rewrite map_app. simpl. now rewrite iso_slots0.
  Qed.

  Lemma iso_ilen : length (insts st') = length (insts st).
  Proof. rewrite (iso_insts _ _ _ _ I). apply map_length. Qed.
  Lemma iso_inst_nth : forall i, nth_error (insts st') i = option_map (rinst rf rt) (nth_error (insts st) i).
  Proof. intros. rewrite (iso_insts _ _ _ _ I). apply nth_error_map. Qed.
  Lemma iso_slot_nth : forall i, nth_error (slots st') i = option_map (rv rf rt) (nth_error (slots st) i).
  Proof. intros. rewrite (iso_slots _ _ _ _ I). apply nth_error_map. Qed.
End IsoSteps.

Section Sim.
  Variables rf rt : addr -> addr.
  Notation iso := (state_iso rf rt).
  Notation rv' := (rv rf rt).

  Lemma sim_get_index : forall st st' i a st1 v, iso st st' -> get_index st i a = Some (st1, v) ->
    exists st1', get_index st' i a = Some (st1', rv' v) /\ iso st1 st1'.
  Proof.
    unfold get_index. intros st st' i a st1 v I E.
    rewrite (iso_inst_nth _ _ _ _ I). destruct (nth_error (insts st) i) as [o|]; try discriminate. simpl.
    rewrite lookup_rkv. destruct (lookup a (ifields o)) as [w|]; simpl.
    - inv E. eauto.
    - destruct (nth_error (types st) (ity o)) as [t|] eqn:N; try discriminate.
      destruct (iso_types _ _ _ _ I _ _ N) as (t' & N' & _ & M). rewrite N', M.
      destruct (lookup a (tmethods t)) as [[| |f| |]|]; try discriminate. simpl. inv E.
      rewrite <- (iso_flen_fix _ _ _ _ I).
      eexists. split. reflexivity. exact (iso_alloc_func _ _ _ _ I (FBound i f)).
  Qed.

  Lemma sim_eval_path : forall p st st' st1 v, iso st st' -> eval_path st p = Some (st1, v) ->
    exists st1', eval_path st' p = Some (st1', rv' v) /\ iso st1 st1'.
  Proof.
    induction p as [n|k|q IH a]; simpl; intros st st' st1 v I E.
    - inv E. rewrite (iso_globals _ _ _ _ I). eauto.
    - rewrite (iso_slot_nth _ _ _ _ I). destruct (nth_error (slots st) k); inv E. simpl. eauto.
    - destruct (eval_path st q) as [[s1 w]|] eqn:E1; try discriminate.
      destruct (IH _ _ _ _ I E1) as (s1' & E1' & I1). rewrite E1'.
      destruct w; try discriminate. simpl. eapply sim_get_index; eauto.
  Qed.

  Lemma sim_eval_arg : forall a st st' st1 v, iso st st' -> eval_arg st a = Some (st1, v) ->
    exists st1', eval_arg st' a = Some (st1', rv' v) /\ iso st1 st1'.
  Proof.
    destruct a; simpl; intros.
    - inv H0. eauto.
    - eapply sim_eval_path; eauto.
  Qed.

  Lemma sim_eval_args : forall fs st st' st1 vs, iso st st' -> eval_args st fs = Some (st1, vs) ->
    exists st1', eval_args st' fs = Some (st1', rkv rf rt vs) /\ iso st1 st1'.
  Proof.
    induction fs as [|[k a] r IH]; simpl; intros st st' st1 vs I E.
    - inv E. eauto.
    - destruct (eval_arg st a) as [[s1 v]|] eqn:E1; try discriminate.
      destruct (sim_eval_arg _ _ _ _ _ I E1) as (s1' & E1' & I1). rewrite E1'.
      destruct (eval_args s1 r) as [[s2 vs']|] eqn:E2; try discriminate. inv E.
      destruct (IH _ _ _ _ I1 E2) as (s2' & E2' & I2). rewrite E2'. eauto.
  Qed.

  Lemma sim_eval_expr : forall e st st' st1 v, iso st st' -> eval_expr st e = Some (st1, v) ->
    exists st1', eval_expr st' e = Some (st1', rv' v) /\ iso st1 st1'.
  Proof.
    destruct e as [a|t fs]; simpl; intros st st' st1 v I E.
    - eapply sim_eval_arg; eauto.
    - destruct (eval_args st fs) as [[s1 vs]|] eqn:E1; try discriminate.
      destruct (sim_eval_args _ _ _ _ _ I E1) as (s1' & E1' & I1). rewrite E1'.
      rewrite (iso_globals _ _ _ _ I1). destruct (gget s1 t) as [| | |ta|]; try discriminate. simpl.
      destruct (nth_error (types s1) ta) as [ty|] eqn:N; try discriminate. inv E.
      destruct (iso_types _ _ _ _ I1 _ _ N) as (ty' & N' & F & _). rewrite N', F, rkv_set_fields.
      rewrite (iso_ilen _ _ _ _ I1).
      eexists. split. reflexivity. exact (iso_alloc_inst _ _ _ _ I1 (mkInst ta (set_fields (tfields ty) vs))).
  Qed.

  Lemma fold_upsert_rkv : forall fs l, kv_scalar fs ->
    fold_left (fun acc kv => upsert (fst kv) (snd kv) acc) fs (rkv rf rt l) =
    rkv rf rt (fold_left (fun acc kv => upsert (fst kv) (snd kv) acc) fs l).
  Proof.
    induction fs as [|[k v] r IH]; simpl; intros l H; auto. inv H. simpl in *.
    rewrite <- IH by auto. f_equal. rewrite <- rkv_upsert. now rewrite rv_scalar.
  Qed.

  Lemma sim_exec_instr : forall i st st' st1, iscalar i -> iso st st' -> exec_instr st i = Some st1 ->
    exists st1', exec_instr st' i = Some st1' /\ iso st1 st1'.
  Proof.
    intros i st st' st1 SC I E. destruct i as [t fs|t m b|n b|n z|n e]; simpl in SC.
    - apply exec_GlobalStruct in E. simpl. rewrite (iso_globals _ _ _ _ I).
      destruct E as [[G ->]|(ta & ty & G & N & ->)]; rewrite G; simpl.
      + eexists. split. reflexivity. rewrite <- (iso_tlen_fix _ _ _ _ I).
        apply (iso_gset _ _ _ _ (iso_alloc_type _ _ _ _ I _ _ (ty_rel_scalar rf rt fs SC)) t (VType (length (types st)))).
      + destruct (iso_types _ _ _ _ I _ _ N) as (ty' & N' & F & M). rewrite N'.
        eexists. split. reflexivity. apply iso_upd_type; auto. eapply nth_lt; eauto.
        split; simpl; auto. rewrite F. now apply fold_upsert_rkv.
    - apply exec_SetMethod in E. simpl. rewrite (iso_globals _ _ _ _ I).
      destruct E as (ta & ty & G & N & E). rewrite G. simpl.
      destruct (iso_types _ _ _ _ I _ _ N) as (ty' & N' & F & M). rewrite N', M.
      destruct E as [(a & L & LT & ->)|(FN & ->)].
      + rewrite L. simpl. rewrite overwrite_lt by (rewrite (iso_flen _ _ _ _ I); apply (renaming_lt _ _ _ (iso_rf _ _ _ _ I) LT)).
        eexists. split. reflexivity. apply (iso_upd_func _ _ _ _ I a (FBody b) LT).
      + simpl in FN. rewrite G, N in FN.
        eexists. split.
        { revert FN. destruct (lookup m (tmethods ty)) as [[]|]; intros FN; try discriminate FN; reflexivity. }
        apply (iso_upd_type _ _ _ _ (iso_alloc_func _ _ _ _ I (FBody b))).
        * simpl. eapply nth_lt; eauto.
        * split; simpl; auto. rewrite <- (iso_flen_fix _ _ _ _ I).
          apply (maps_to_upsert rf rt m (VFunc (length (funcs st)))). exact M.
    - apply exec_GlobalFunc in E. simpl. rewrite (iso_globals _ _ _ _ I).
      destruct E as [[G ->]|(a & G & LT & ->)]; rewrite G; simpl.
      + eexists. split. reflexivity. rewrite <- (iso_flen_fix _ _ _ _ I).
        apply (iso_gset _ _ _ _ (iso_alloc_func _ _ _ _ I (FBody b)) n (VFunc (length (funcs st)))).
      + rewrite overwrite_lt by (rewrite (iso_flen _ _ _ _ I); apply (renaming_lt _ _ _ (iso_rf _ _ _ _ I) LT)).
        eexists. split. reflexivity. apply (iso_upd_func _ _ _ _ I a (FBody b) LT).
    - apply exec_GlobalZero in E. simpl. rewrite (iso_globals _ _ _ _ I), is_nil_rv.
      destruct E as [[G ->]|[G ->]]; rewrite G.
      + eexists. split. reflexivity. rewrite <- (rv_scalar rf rt z SC) at 2. now apply iso_gset.
      + eauto.
    - simpl in E. simpl. destruct (eval_expr st e) as [[s1 v]|] eqn:E1; inv E.
      destruct (sim_eval_expr _ _ _ _ _ I E1) as (s1' & E1' & I1). rewrite E1'.
      eexists. split. reflexivity. now apply iso_gset.
  Qed.

  Lemma sim_exec_list : forall l st st' st1, Forall iscalar l -> iso st st' -> exec_list st l = Some st1 ->
    exists st1', exec_list st' l = Some st1' /\ iso st1 st1'.
  Proof.
    induction l as [|i l IH]; simpl; intros st st' st1 SC I E.
    - inv E. eauto.
    - inv SC. destruct (exec_instr st i) as [s1|] eqn:E1; try discriminate.
      destruct (sim_exec_instr _ _ _ _ H1 I E1) as (s1' & E1' & I1). rewrite E1'. eauto.
  Qed.

  Lemma iso_funcs_none : forall st st' a, iso st st' -> nth_error (funcs st) a = None -> nth_error (funcs st') (rf a) = None.
  Proof. intros st st' a I. exact (renaming_none _ _ _ _ _ (iso_rf _ _ _ _ I) eq_refl (iso_flen _ _ _ _ I)). Qed.

  (* CALL of corresponding values: the same body, the same receiver *)
  Lemma sim_call_obs : forall st st' v, iso st st' -> call_obs st' (rv' v) = call_obs st v.
  Proof.
    intros st st' v I. destruct v as [| |c| |]; simpl; auto.
    destruct (nth_error (funcs st) c) as [x|] eqn:N.
    - rewrite (iso_funcs _ _ _ _ I _ _ N). destruct x as [b|r f]; simpl; auto.
      destruct (nth_error (funcs st) f) as [y|] eqn:N'.
      + rewrite (iso_funcs _ _ _ _ I _ _ N'). destruct y; simpl; auto.
      + now rewrite (iso_funcs_none _ _ _ I N').
    - now rewrite (iso_funcs_none _ _ _ I N).
  Qed.

  Lemma sim_same_obj : forall st st' v w, iso st st' -> same_obj (rv' v) (rv' w) = same_obj v w.
  Proof.
    intros st st' v w I. destruct v, w; simpl; auto.
    - now rewrite (renaming_eqb _ _ _ _ (iso_rf _ _ _ _ I)).
    - now rewrite (renaming_eqb _ _ _ _ (iso_rt _ _ _ _ I)).
  Qed.

  Lemma sim_store : forall l v st st' st1, iso st st' -> store st l v = Some st1 ->
    exists st1', store st' l (rv' v) = Some st1' /\ iso st1 st1'.
  Proof.
    destruct l as [|n|p f]; simpl; intros v st st' st1 I E.
    - inv E. eexists. split. reflexivity. now apply iso_push_slot.
    - inv E. eexists. split. reflexivity. now apply iso_gset.
    - destruct (eval_path st p) as [[s1 w]|] eqn:E1; try discriminate.
      destruct (sim_eval_path _ _ _ _ _ I E1) as (s1' & E1' & I1). rewrite E1'.
      destruct w as [| | | |i]; try discriminate. simpl.
      rewrite (iso_inst_nth _ _ _ _ I1). destruct (nth_error (insts s1) i) as [o|]; inv E. simpl.
      eexists. split. reflexivity. rewrite rkv_assign.
      apply (iso_upd_inst _ _ _ _ I1 i (mkInst (ity o) (assign f v (ifields o)))).
  Qed.
End Sim.

(* closed: every function / type address stored anywhere in the state lies below the heap it
   points into.  The renaming that exchanges two freshly allocated cells is the identity on
   such a state (section Fix), so the old part of the state is related to itself. *)
Definition vok (nf nt : nat) (v : val) : Prop :=
  match v with VFunc a => a < nf | VType a => a < nt | _ => True end.
Definition kvok (nf nt : nat) (l : list (name * val)) : Prop := Forall (fun kv => vok nf nt (snd kv)) l.
Definition fok (nf : nat) (x : fobj) : Prop := match x with FBound _ f => f < nf | FBody _ => True end.
Definition tyok (nf nt : nat) (ty : tyobj) : Prop := kvok nf nt (tfields ty) /\ kvok nf nt (tmethods ty).
Definition iok (nf nt : nat) (o : iobj) : Prop := ity o < nt /\ kvok nf nt (ifields o).

Record closed_at (nf nt : nat) (st : state) : Prop := {
  cl_g : kvok nf nt (globals st);
  cl_f : Forall (fok nf) (funcs st);
  cl_t : Forall (tyok nf nt) (types st);
  cl_i : Forall (iok nf nt) (insts st);
  cl_s : Forall (vok nf nt) (slots st)
}.
Definition closed (st : state) : Prop := closed_at (length (funcs st)) (length (types st)) st.

Lemma closed_init : closed init_state.
Proof. split; simpl; constructor. Qed.

Lemma vok_mono : forall nf nt nf' nt' v, nf <= nf' -> nt <= nt' -> vok nf nt v -> vok nf' nt' v.
Proof. destruct v; simpl; intros; auto; lia. Qed.
Lemma vok_scalar : forall nf nt v, scalar v -> vok nf nt v.
Proof. destruct v; simpl; tauto. Qed.
Lemma kvok_mono : forall nf nt nf' nt' l, nf <= nf' -> nt <= nt' -> kvok nf nt l -> kvok nf' nt' l.
Proof. intros. eapply Forall_impl; [|eauto]. intros. eapply vok_mono; eauto. Qed.
Lemma kvok_scalar : forall nf nt l, kv_scalar l -> kvok nf nt l.
Proof. intros. eapply Forall_impl; [|eauto]. intros. now apply vok_scalar. Qed.
Lemma closed_at_mono : forall nf nt nf' nt' st, nf <= nf' -> nt <= nt' -> closed_at nf nt st -> closed_at nf' nt' st.
Proof.
  intros nf nt nf' nt' st LF LT [G F T I S]. split.
  - eapply kvok_mono; eauto.
  - eapply Forall_impl; [|eauto]. intros [b|r f]; simpl; auto. lia.
  - eapply Forall_impl; [|eauto]. intros ty [A B]. split; eapply kvok_mono; eauto.
  - eapply Forall_impl; [|eauto]. intros o [A B]. split; [lia | eapply kvok_mono; eauto].
  - eapply Forall_impl; [|eauto]. intros. eapply vok_mono; eauto.
Qed.

Lemma kvok_lookup : forall nf nt l k v, kvok nf nt l -> lookup k l = Some v -> vok nf nt v.
Proof.
  induction l as [|[k' v'] r IH]; simpl; intros k v H E; try discriminate. inv H.
  destruct (k =? k')%Z; [inv E; auto | eauto].
Qed.
Lemma kvok_upsert : forall nf nt k v l, kvok nf nt l -> vok nf nt v -> kvok nf nt (upsert k v l).
Proof.
  induction l as [|[k' v'] r IH]; simpl; intros H V.
  - repeat constructor. exact V.
  - inv H. destruct (k =? k')%Z; constructor; auto. apply IH; auto.
Qed.
Lemma kvok_assign : forall nf nt k v l, kvok nf nt l -> vok nf nt v -> kvok nf nt (assign k v l).
Proof.
  induction l as [|[k' v'] r IH]; simpl; intros H V; auto.
  inv H. destruct (k =? k')%Z; constructor; auto. apply IH; auto.
Qed.
Lemma kvok_fold_upsert : forall nf nt fs l, kvok nf nt l -> kvok nf nt fs ->
  kvok nf nt (fold_left (fun acc kv => upsert (fst kv) (snd kv) acc) fs l).
Proof.
  induction fs as [|[k v] r IH]; simpl; intros l H F; auto. inv F. apply IH; auto. apply kvok_upsert; auto.
Qed.
Lemma kvok_set_fields : forall nf nt vs l, kvok nf nt l -> kvok nf nt vs -> kvok nf nt (set_fields l vs).
Proof.
  unfold set_fields. induction vs as [|[k v] r IH]; simpl; intros l H F; auto. inv F. apply IH; auto. apply kvok_assign; auto.
Qed.
Lemma Forall_snoc : forall {A} (P : A -> Prop) l x, Forall P l -> P x -> Forall P (l ++ [x]).
Proof. intros. apply Forall_app. split; auto. Qed.

Lemma closed_gget : forall st n, closed st -> vok (length (funcs st)) (length (types st)) (gget st n).
Proof.
  intros st n C. unfold gget. destruct (lookup n (globals st)) eqn:L; simpl; auto.
  eapply kvok_lookup; eauto. apply C.
Qed.

Lemma closed_alloc_func : forall st x, closed st -> fok (S (length (funcs st))) x -> closed (set_funcs st (funcs st ++ [x])).
Proof.
  intros st x C X. unfold closed. simpl. rewrite app_length. simpl. rewrite Nat.add_1_r.
  assert (C' : closed_at (S (length (funcs st))) (length (types st)) st) by (eapply closed_at_mono; [| |exact C]; lia).
  destruct C' as [G F T I S].
  split; simpl; auto. apply Forall_snoc; auto.
Qed.
Lemma closed_upd_func : forall st a b, closed st -> closed (set_funcs st (upd (funcs st) a (FBody b))).
Proof.
  intros st a b C. unfold closed. simpl. rewrite upd_length. destruct C as [G F T I S].
  split; simpl; auto. apply Forall_upd; simpl; auto.
Qed.
Lemma closed_gset : forall st n v, closed st -> vok (length (funcs st)) (length (types st)) v -> closed (gset st n v).
Proof.
  intros st n v C V. unfold closed. simpl. destruct C as [G F T I S]. split; simpl; auto. apply kvok_upsert; auto.
Qed.
Lemma closed_alloc_type : forall st ty, closed st -> tyok (length (funcs st)) (S (length (types st))) ty ->
  closed (set_types st (types st ++ [ty])).
Proof.
  intros st ty C X. unfold closed. simpl. rewrite app_length. simpl. rewrite Nat.add_1_r.
  assert (C' : closed_at (length (funcs st)) (S (length (types st))) st) by (eapply closed_at_mono; [| |exact C]; lia).
  destruct C' as [G F T I S].
  split; simpl; auto. apply Forall_snoc; auto.
Qed.
Lemma closed_upd_type : forall st a ty, closed st -> tyok (length (funcs st)) (length (types st)) ty ->
  closed (set_types st (upd (types st) a ty)).
Proof.
  intros st a ty C X. unfold closed. simpl. rewrite upd_length. destruct C as [G F T I S].
  split; simpl; auto. apply Forall_upd; auto.
Qed.
Lemma closed_alloc_inst : forall st o, closed st -> iok (length (funcs st)) (length (types st)) o ->
  closed (set_insts st (insts st ++ [o])).
Proof.
  intros st o C X. unfold closed. simpl. destruct C as [G F T I S]. split; simpl; auto. apply Forall_snoc; auto.
Qed.
Lemma closed_upd_inst : forall st i o, closed st -> iok (length (funcs st)) (length (types st)) o ->
  closed (set_insts st (upd (insts st) i o)).
Proof.
  intros st i o C X. unfold closed. simpl. destruct C as [G F T I S]. split; simpl; auto. apply Forall_upd; auto.
Qed.
Lemma closed_push_slot : forall st v, closed st -> vok (length (funcs st)) (length (types st)) v ->
  closed (set_slots st (slots st ++ [v])).
Proof.
  intros st v C X. unfold closed. simpl. destruct C as [G F T I S]. split; simpl; auto. apply Forall_snoc; auto.
Qed.

Definition closed_val (st : state) (v : val) : Prop := vok (length (funcs st)) (length (types st)) v.

Lemma frame_len : forall st st', frame st st' ->
  length (funcs st) <= length (funcs st') /\ length (types st') = length (types st).
Proof.
  intros st st' (T & _ & _ & [x F] & _). rewrite F, T, app_length. split; lia.
Qed.
Lemma closed_val_frame : forall st st' v, frame st st' -> closed_val st v -> closed_val st' v.
Proof.
  intros st st' v F V. destruct (frame_len _ _ F) as [A B]. unfold closed_val in *. rewrite B.
  eapply vok_mono; eauto.
Qed.

Lemma closed_get_index : forall st i a st1 v, closed st -> get_index st i a = Some (st1, v) -> closed st1 /\ closed_val st1 v.
Proof.
  unfold get_index. intros st i a st1 v C E.
  destruct (nth_error (insts st) i) as [o|] eqn:NI; try discriminate.
  destruct (lookup a (ifields o)) as [w|] eqn:L.
  - inv E. split; auto. destruct (Forall_nth_error _ _ _ _ (cl_i _ _ _ C) NI) as [_ K].
    eapply kvok_lookup; eauto.
  - destruct (nth_error (types st) (ity o)) as [t|] eqn:NT; try discriminate.
    destruct (lookup a (tmethods t)) as [[| |f| |]|] eqn:LM; try discriminate. inv E.
    destruct (Forall_nth_error _ _ _ _ (cl_t _ _ _ C) NT) as [_ K].
    pose proof (kvok_lookup _ _ _ _ _ K LM) as V. simpl in V. split.
    + apply closed_alloc_func; auto. simpl. lia.
    + unfold closed_val. simpl. rewrite app_length. simpl. lia.
Qed.
Lemma closed_eval_path : forall p st st1 v, closed st -> eval_path st p = Some (st1, v) -> closed st1 /\ closed_val st1 v.
Proof.
  induction p as [n|k|q IH a]; simpl; intros st st1 v C E.
  - inv E. split; auto. now apply closed_gget.
  - destruct (nth_error (slots st) k) eqn:N; inv E. split; auto. eapply Forall_nth_error; [apply (cl_s _ _ _ C) | exact N].
  - destruct (eval_path st q) as [[s1 w]|] eqn:E1; try discriminate. destruct w; try discriminate.
    destruct (IH _ _ _ C E1) as [C1 _]. eapply closed_get_index; eauto.
Qed.
Lemma closed_eval_arg : forall a st st1 v, closed st -> eval_arg st a = Some (st1, v) -> closed st1 /\ closed_val st1 v.
Proof.
  destruct a; simpl; intros.
  - inv H0. split; auto. exact Logic.I.
  - eapply closed_eval_path; eauto.
Qed.
Lemma closed_eval_args : forall fs st st1 vs, closed st -> eval_args st fs = Some (st1, vs) ->
  closed st1 /\ kvok (length (funcs st1)) (length (types st1)) vs.
Proof.
  induction fs as [|[k a] r IH]; simpl; intros st st1 vs C E.
  - inv E. split; auto. constructor.
  - destruct (eval_arg st a) as [[s1 v]|] eqn:E1; try discriminate.
    destruct (eval_args s1 r) as [[s2 vs']|] eqn:E2; try discriminate. inv E.
    destruct (closed_eval_arg _ _ _ _ C E1) as [C1 V1]. destruct (IH _ _ _ C1 E2) as [C2 V2]. split; auto.
    constructor; auto. simpl. eapply closed_val_frame; eauto. eapply eval_args_frame; eauto.
Qed.
Lemma closed_eval_expr : forall e st st1 v, closed st -> eval_expr st e = Some (st1, v) -> closed st1 /\ closed_val st1 v.
Proof.
  destruct e as [a|t fs]; simpl; intros st st1 v C E.
  - eapply closed_eval_arg; eauto.
  - destruct (eval_args st fs) as [[s1 vs]|] eqn:E1; try discriminate.
    destruct (closed_eval_args _ _ _ _ C E1) as [C1 V1].
    destruct (gget s1 t) as [| | |ta|] eqn:G; try discriminate.
    destruct (nth_error (types s1) ta) as [ty|] eqn:N; try discriminate. inv E. split.
    + apply closed_alloc_inst; auto. split; simpl. eapply nth_lt; eauto.
      apply kvok_set_fields; auto. apply (Forall_nth_error _ _ _ _ (cl_t _ _ _ C1) N).
    + exact Logic.I.
Qed.

Lemma closed_exec_instr : forall i st st1, iscalar i -> closed st -> exec_instr st i = Some st1 -> closed st1.
Proof.
  intros i st st1 SC C E. destruct i as [t fs|t m b|n b|n z|n e]; simpl in SC.
  - apply exec_GlobalStruct in E. destruct E as [[G ->]|(ta & ty & G & N & ->)].
    + apply closed_gset.
      * apply closed_alloc_type; auto. split; simpl; [now apply kvok_scalar | constructor].
      * simpl. rewrite app_length. simpl. lia.
    + apply closed_upd_type; auto. destruct (Forall_nth_error _ _ _ _ (cl_t _ _ _ C) N) as [A B]. split; simpl; auto.
      apply kvok_fold_upsert; auto. now apply kvok_scalar.
  - apply exec_SetMethod in E. destruct E as (ta & ty & G & N & [(a & L & LT & ->)|(FN & ->)]).
    + now apply closed_upd_func.
    + pose proof (closed_alloc_func st (FBody b) C Logic.I) as C1.
      apply (closed_upd_type _ ta _ C1). destruct (Forall_nth_error _ _ _ _ (cl_t _ _ _ C1) N) as [A B].
      split; simpl; auto. apply kvok_upsert; auto. simpl. rewrite app_length. simpl. lia.
  - apply exec_GlobalFunc in E. destruct E as [[G ->]|(a & G & LT & ->)].
    + apply closed_gset. apply closed_alloc_func; simpl; auto. simpl. rewrite app_length. simpl. lia.
    + now apply closed_upd_func.
  - apply exec_GlobalZero in E. destruct E as [[G ->]|[G ->]]; auto. apply closed_gset; auto. now apply vok_scalar.
  - simpl in E. destruct (eval_expr st e) as [[s1 v]|] eqn:E1; inv E.
    destruct (closed_eval_expr _ _ _ _ C E1) as [C1 V1]. now apply closed_gset.
Qed.

Lemma closed_exec_list : forall l st st1, Forall iscalar l -> closed st -> exec_list st l = Some st1 -> closed st1.
Proof.
  induction l as [|i l IH]; simpl; intros st st1 SC C E.
  - now inv E.
  - inv SC. destruct (exec_instr st i) as [s1|] eqn:E1; try discriminate.
    eapply (IH s1); [exact H2 | eapply closed_exec_instr; eauto | exact E].
Qed.

(* a renaming that fixes every address of a closed state fixes everything in it *)
Section Fix.
  Variables rf rt : addr -> addr.
  Variables nf nt : nat.
  Hypothesis FF : forall a, a < nf -> rf a = a.
  Hypothesis FT : forall a, a < nt -> rt a = a.

  Lemma rv_fix : forall v, vok nf nt v -> rv rf rt v = v.
  Proof. destruct v; simpl; intros; auto; f_equal; auto. Qed.
  Lemma rkv_fix : forall l, kvok nf nt l -> rkv rf rt l = l.
  Proof.
    induction l as [|[k v] r IH]; simpl; intros H; auto. inv H. simpl in *. rewrite rv_fix by auto. now rewrite IH.
  Qed.
  Lemma maps_to_fix : forall l, kvok nf nt l -> maps_to rf rt l l.
  Proof.
    intros l H k. destruct (lookup k l) eqn:L; simpl; auto. f_equal. symmetry. apply rv_fix. eapply kvok_lookup; eauto.
  Qed.
  Lemma rfobj_fix : forall x, fok nf x -> rfobj rf x = x.
  Proof. destruct x; simpl; intros; auto; rewrite FF; auto. Qed.
  Lemma ty_rel_fix : forall ty, tyok nf nt ty -> ty_rel rf rt ty ty.
  Proof. intros ty [A B]. split. now rewrite rkv_fix. now apply maps_to_fix. Qed.
  Lemma rinst_fix : forall l, Forall (iok nf nt) l -> map (rinst rf rt) l = l.
  Proof.
    induction l as [|[t f] r IH]; simpl; intros H; auto. inv H. destruct H2 as [A B]. simpl in *.
    unfold rinst at 1. simpl. rewrite FT, rkv_fix by auto. now rewrite IH.
  Qed.
  Lemma rvs_fix : forall l, Forall (vok nf nt) l -> map (rv rf rt) l = l.
  Proof. induction l; simpl; intros H; auto. inv H. rewrite rv_fix by auto. now rewrite IHl. Qed.
End Fix.

Lemma closed_fixed : forall (rf rt : addr -> addr) st, closed st ->
  (forall a, a < length (funcs st) -> rf a = a) -> (forall a, a < length (types st) -> rt a = a) ->
  Forall (fun x => rfobj rf x = x) (funcs st) /\ Forall (fun ty => ty_rel rf rt ty ty) (types st) /\
  insts st = map (rinst rf rt) (insts st) /\ (forall n, gget st n = rv rf rt (gget st n)) /\
  slots st = map (rv rf rt) (slots st).
Proof.
  intros rf rt st C FF FT. repeat split.
  - eapply Forall_impl; [|apply (cl_f _ _ _ C)]. exact (rfobj_fix rf _ FF).
  - eapply Forall_impl; [|apply (cl_t _ _ _ C)]. exact (ty_rel_fix rf rt _ _ FF FT).
  - symmetry. apply (rinst_fix rf rt _ _ FF FT), C.
  - intros n. symmetry. apply (rv_fix rf rt _ _ FF FT), closed_gget, C.
  - symmetry. apply (rvs_fix rf rt _ _ FF FT), C.
Qed.

(* two fresh cells allocated in either order *)
Lemma nth_swap2 : forall {A} (P : A -> Prop) (h : list A) u v a x, Forall P h -> P u -> P v ->
  nth_error ((h ++ [u]) ++ [v]) a = Some x ->
  P x /\ nth_error ((h ++ [v]) ++ [u]) (swp (length h) (S (length h)) a) = Some x.
Proof.
  intros A P h u v a x H U V N. rewrite <- app_assoc in *. simpl in *.
  apply nth_app_cases in N. destruct N as [N|[LE N]].
  - rewrite swp_other by (apply nth_lt in N; lia). split; [eapply Forall_nth_error; eauto | now apply nth_app_old].
  - destruct (a - length h) as [|[|k]] eqn:D; simpl in N; [| |destruct k; discriminate]; inv N; split; auto.
    + replace a with (length h) by lia. rewrite swp_l, nth_error_app2 by lia.
      now replace (S (length h) - length h) with 1 by lia.
    + replace a with (S (length h)) by lia. rewrite swp_r. apply nth_app_new.
Qed.

Lemma iso_swap_funcs : forall st b1 b2, closed st ->
  state_iso (swp (length (funcs st)) (S (length (funcs st)))) (fun a => a)
    (set_funcs st ((funcs st ++ [FBody b1]) ++ [FBody b2])) (set_funcs st ((funcs st ++ [FBody b2]) ++ [FBody b1])).
Proof.
  intros st b1 b2 C. set (n := length (funcs st)).
  destruct (closed_fixed (swp n (S n)) (fun a => a) st C) as (F & T & I & G & SL); auto.
  { intros. apply swp_other; lia. }
  split; simpl; auto.
  - rewrite !app_length. simpl. apply renaming_swp; lia.
  - apply renaming_id.
  - now rewrite !app_length.
  - intros a x N. destruct (nth_swap2 _ _ _ _ _ _ F eq_refl eq_refl N) as [PX H]. now rewrite PX.
  - intros a ty N. exists ty. split; auto. exact (Forall_nth_error _ _ _ _ T N).
Qed.

Lemma iso_swap_types : forall st fs1 fs2, closed st -> kv_scalar fs1 -> kv_scalar fs2 ->
  state_iso (fun a => a) (swp (length (types st)) (S (length (types st))))
    (set_types st ((types st ++ [mkTy fs1 []]) ++ [mkTy fs2 []])) (set_types st ((types st ++ [mkTy fs2 []]) ++ [mkTy fs1 []])).
Proof.
  intros st fs1 fs2 C S1 S2. set (n := length (types st)).
  destruct (closed_fixed (fun a => a) (swp n (S n)) st C) as (F & T & I & G & SL); auto.
  { intros. apply swp_other; lia. }
  split; simpl; auto.
  - apply renaming_id.
  - rewrite !app_length. simpl. apply renaming_swp; lia.
  - now rewrite !app_length.
  - intros a x N. destruct x; exact N.
  - intros a ty N. exists ty. apply and_comm. apply (nth_swap2 _ _ _ _ _ _ T); auto using ty_rel_scalar.
Qed.

(* the isomorphism reads the globals through gget only *)
Lemma iso_gset_comm : forall rf rt s s' a x b y, a <> b ->
  state_iso rf rt s (gset (gset s' a x) b y) -> state_iso rf rt s (gset (gset s' b y) a x).
Proof.
  intros rf rt s s' a x b y NE []. split; auto.
  intros k. rewrite <- iso_globals0. unfold gget. simpl. now rewrite lookup_upsert_comm.
Qed.

Lemma run_GlobalFunc_alloc : forall st n b, gget st n = VNil ->
  exec_instr st (GlobalFunc n b) = Some (gset (set_funcs st (funcs st ++ [FBody b])) n (VFunc (length (funcs st)))).
Proof. intros. simpl. now rewrite H. Qed.
Lemma run_GlobalStruct_alloc : forall st t fs, gget st t = VNil ->
  exec_instr st (GlobalStruct t fs) = Some (gset (set_types st (types st ++ [mkTy fs []])) t (VType (length (types st)))).
Proof. intros. simpl. now rewrite H. Qed.
Lemma run_GlobalStruct_overwrite : forall st t fs ta ty, gget st t = VType ta -> nth_error (types st) ta = Some ty ->
  exec_instr st (GlobalStruct t fs) = Some (set_types st (upd (types st) ta
             (mkTy (fold_left (fun acc kv => upsert (fst kv) (snd kv) acc) fs (tfields ty)) (tmethods ty)))).
Proof. intros. simpl. now rewrite H, H0. Qed.
(* a declaration whose key has an address writes the new body into that function object *)
Lemma run_overwrite : forall st i k a, instr_key i = Some k -> fn_addr st k = Some a -> a < length (funcs st) ->
  exec_instr st i = Some (set_funcs st (upd (funcs st) a (FBody (instr_body i)))).
Proof.
  intros st i k a IK F LT. destruct i; inv IK.
  - apply fn_addr_meth in F. destruct F as (ta & ty & G & N & L). simpl. rewrite G, N, L. now apply overwrite_lt.
  - simpl in *. destruct (gget st n); inv F. now apply overwrite_lt.
Qed.

(* what SETMETHOD does to the heap of type objects when the method is new *)
Definition add_method (st : state) (ta : addr) (m : name) (v : val) : state :=
  set_types st (match nth_error (types st) ta with
                | Some ty => upd (types st) ta (mkTy (tfields ty) (upsert m v (tmethods ty)))
                | None => types st
                end).
Lemma nth_add_method : forall st ta m v a, nth_error (types (add_method st ta m v)) a =
  option_map (fun ty => if a =? ta then mkTy (tfields ty) (upsert m v (tmethods ty)) else ty) (nth_error (types st) a).
Proof.
  intros. unfold add_method. simpl. destruct (Nat.eqb_spec a ta) as [->|NE].
  - destruct (nth_error (types st) ta) eqn:N; simpl; [apply nth_upd_same; eapply nth_lt; eauto | exact N].
  - destruct (nth_error (types st) ta); [rewrite nth_upd_other by auto|]; now destruct (nth_error (types st) a).
Qed.
Lemma add_method_length : forall st ta m v, length (types (add_method st ta m v)) = length (types st).
Proof. intros. unfold add_method. simpl. destruct (nth_error (types st) ta); auto using upd_length. Qed.
Lemma run_SetMethod_alloc : forall st t m b ta, gget st t = VType ta -> ta < length (types st) ->
  fn_addr st (KMeth t m) = None ->
  exec_instr st (SetMethod t m b) =
  Some (add_method (set_funcs st (funcs st ++ [FBody b])) ta m (VFunc (length (funcs st)))).
Proof.
  unfold add_method. simpl. intros st t m b ta -> LT H.
  destruct (nth_error (types st) ta) as [ty|] eqn:N; [|apply nth_error_None in N; lia].
  destruct (lookup m (tmethods ty)) as [[]|]; auto; discriminate.
Qed.

Lemma iso_add_method : forall rf rt st st' ta m v, state_iso rf rt st st' ->
  state_iso rf rt (add_method st ta m v) (add_method st' (rt ta) m (rv rf rt v)).
Proof.
  intros rf rt st st' ta m v I. unfold add_method. destruct (nth_error (types st) ta) as [ty|] eqn:N.
  - destruct (iso_types _ _ _ _ I _ _ N) as (ty' & -> & F & M).
    apply iso_upd_type; auto. { eapply nth_lt; eauto. } split; simpl; auto. now apply maps_to_upsert.
  - rewrite (renaming_none _ _ _ (types st') _ (iso_rt _ _ _ _ I) eq_refl (iso_tlen _ _ _ _ I) N).
    now rewrite !st_eta_types.
Qed.

(* the isomorphism reads the methods through lookup only *)
Lemma iso_add_method_comm : forall rf rt s s' ta1 m1 v1 ta2 m2 v2, ta1 <> ta2 \/ m1 <> m2 ->
  state_iso rf rt s (add_method (add_method s' ta1 m1 v1) ta2 m2 v2) ->
  state_iso rf rt s (add_method (add_method s' ta2 m2 v2) ta1 m1 v1).
Proof.
  intros rf rt s s' ta1 m1 v1 ta2 m2 v2 NE []. split; auto.
  - now rewrite !add_method_length in *.
  - intros a ty N. destruct (iso_types0 a ty N) as (ty' & N' & F & M).
    rewrite !nth_add_method in *. destruct (nth_error (types s') (rt a)) as [ty0|]; inv N'.
    eexists. split. reflexivity.
    destruct (Nat.eqb_spec (rt a) ta1), (Nat.eqb_spec (rt a) ta2); split; simpl in *; auto.
    intro k. rewrite <- M. apply lookup_upsert_comm. destruct NE; congruence.
Qed.

(* no declaration of a function or a method reads the contents of a function object: writing one
   that is not the declaration's own commutes with it *)
Lemma exec_upd_funcs : forall i k st a o, instr_key i = Some k -> fn_addr st k <> Some a -> a < length (funcs st) ->
  exec_instr (set_funcs st (upd (funcs st) a o)) i =
  option_map (fun s => set_funcs s (upd (funcs s) a o)) (exec_instr st i).
Proof.
  assert (OV : forall st a o a' b, a' <> a ->
            overwrite (set_funcs st (upd (funcs st) a o)) a' b =
            option_map (fun s => set_funcs s (upd (funcs s) a o)) (overwrite st a' b)).
  { intros. unfold overwrite. simpl. rewrite upd_length. destruct (a' <? length (funcs st)); simpl; auto.
    unfold set_funcs. simpl. now rewrite upd_comm by auto. }
  intros i k st a o IK NA LT. destruct i as [|t m b|n b| |]; inv IK; simpl in *; rewrite gget_set_funcs; revert NA.
  - destruct (gget st t) as [| | |ta|]; auto. destruct (nth_error (types st) ta) as [ty|]; auto.
    destruct (lookup m (tmethods ty)) as [[| |a'| |]|]; intros NA; simpl;
      try (unfold set_types, set_funcs; simpl; now rewrite upd_length, upd_app_l).
    apply OV. congruence.
  - destruct (gget st n) as [| |a'| |]; intros NA; simpl; try reflexivity; [|apply OV; congruence].
    unfold gset, set_globals, set_funcs. simpl. now rewrite upd_length, upd_app_l.
Qed.

Lemma closed_gget_func : forall st t a, closed st -> gget st t = VFunc a -> a < length (funcs st).
Proof. intros st t ta C G. pose proof (closed_gget st t C) as V. rewrite G in V. exact V. Qed.

(* running y and then x from st ends, up to renaming, where running x and then y ended: in s2 *)
Definition swapped (st : state) (x y : instr) (s2 : state) : Prop :=
  exists s1' s2' rf rt, exec_instr st y = Some s1' /\ exec_instr s1' x = Some s2' /\ state_iso rf rt s2 s2'.
Definition swap_ok (st : state) (x y : instr) : Prop :=
  forall s1 s2, exec_instr st x = Some s1 -> exec_instr s1 y = Some s2 -> swapped st x y s2.

(* unless both instructions allocate, the two orders end in the same state *)
Lemma swap_eq : forall st x y s2 s1' s2', exec_instr st y = Some s1' -> exec_instr s1' x = Some s2' -> s2 = s2' ->
  swapped st x y s2.
Proof. intros. subst. exists s1', s2', (fun a => a), (fun a => a). auto using state_iso_refl. Qed.

Section Swap.
  Variable S : sig.
  Hypothesis WF : wf_sig S.

  (* same level, different declared key *)
  Definition indep (x y : instr) : Prop :=
    match x, y with
    | GlobalStruct t _, GlobalStruct t' _ => t <> t'
    | SetMethod t m _, SetMethod t' m' _ => (t, m) <> (t', m')
    | GlobalFunc n _, GlobalFunc n' _ => n <> n'
    | _, _ => False
    end.

  (* two declarations of different keys: as soon as one of them finds its key at an address the two orders end
     in the same state; what is left is the case where both allocate *)
  Lemma swap_keyed : forall st x y kx ky s1 s2, instr_key x = Some kx -> instr_key y = Some ky -> kx <> ky ->
    instr_ok S x -> instr_ok S y -> Inv S st -> exec_instr st x = Some s1 -> exec_instr s1 y = Some s2 ->
    (fn_addr st kx = None -> fn_addr st ky = None -> swapped st x y s2) -> swapped st x y s2.
  Proof.
    intros st x y kx ky s1 s2 KX KY NE OX OY IV E1 E2 H.
    pose proof (instr_key_ok _ _ _ OX KX) as OKX. pose proof (instr_key_ok _ _ _ OY KY) as OKY.
    assert (LT : forall s k c, Inv S s -> key_ok S k -> fn_addr s k = Some c -> c < length (funcs s)).
    { intros s k c IS KO F. destruct (inv_faddr S s IS k c KO F) as [b N]. eapply nth_lt; eauto. }
    pose proof (exec_fn_addr S WF st x s1 OX IV E1 ky OKY) as FA. rewrite key_is_false in FA by congruence.
    destruct (fn_addr st kx) as [ax|] eqn:FX; [|destruct (fn_addr st ky) as [ay|] eqn:FY; [|auto]].
    - (* x overwrites: y runs from st as it does after x *)
      rewrite (run_overwrite _ _ _ _ KX FX (LT _ _ _ IV OKX FX)) in E1. inv E1.
      rewrite (exec_upd_funcs y ky) in E2; eauto.
      2:{ intro FY. apply NE. eapply (inv_inj S st IV); eauto. }
      destruct (exec_instr st y) as [s1'|] eqn:EY; inv E2.
      pose proof (exec_fn_addr_old S WF _ _ _ _ _ OY IV EY OKX FX) as FX'.
      eapply swap_eq; [exact EY | apply (run_overwrite _ _ _ _ KX FX'); eauto using exec_inv | reflexivity].
    - (* y overwrites: x runs after y as it does from st *)
      pose proof (LT _ _ _ IV OKY FY) as L.
      rewrite (run_overwrite _ _ _ _ KY FA) in E2 by eauto using exec_inv. inv E2.
      eapply swap_eq; [apply (run_overwrite _ _ _ _ KY FY L) | |reflexivity].
      rewrite (exec_upd_funcs x kx), E1; auto. congruence.
  Qed.

  Lemma swap_FF : forall st n1 b1 n2 b2, n1 <> n2 -> In n1 (sfuncs S) -> In n2 (sfuncs S) -> Inv S st -> closed st ->
    swap_ok st (GlobalFunc n1 b1) (GlobalFunc n2 b2).
  Proof.
    intros st n1 b1 n2 b2 NE IN1 IN2 IV C s1 s2 E1 E2.
    apply (swap_keyed st (GlobalFunc n1 b1) (GlobalFunc n2 b2) _ _ s1 s2 eq_refl eq_refl); auto; [congruence|].
    simpl. intros F1 F2.
    apply exec_GlobalFunc in E1. destruct E1 as [[G1 ->]|(a1 & G1 & _)]; [|now rewrite G1 in F1].
    apply exec_GlobalFunc in E2. rewrite gget_gset_other, gget_set_funcs in E2 by auto.
    destruct E2 as [[G2 ->]|(a2 & G2 & _)]; [|now rewrite G2 in F2].
    eexists. eexists. exists (swp (length (funcs st)) (Datatypes.S (length (funcs st)))), (fun a => a).
    split. { apply run_GlobalFunc_alloc, G2. }
    split. { apply run_GlobalFunc_alloc. now rewrite gget_gset_other by auto. }
    simpl. rewrite !app_length. simpl. rewrite !Nat.add_1_r.
    pose proof (iso_gset _ _ _ _ (iso_gset _ _ _ _ (iso_swap_funcs st b1 b2 C) n1 (VFunc (length (funcs st))))
                  n2 (VFunc (Datatypes.S (length (funcs st))))) as I.
    simpl rv in I. rewrite swp_l, swp_r in I. exact (iso_gset_comm _ _ _ _ _ _ _ _ NE I).
  Qed.

  Lemma swap_TT : forall st t1 fs1 t2 fs2, t1 <> t2 -> In t1 (tnames S) -> In t2 (tnames S) ->
    kv_scalar fs1 -> kv_scalar fs2 -> Inv S st -> closed st ->
    swap_ok st (GlobalStruct t1 fs1) (GlobalStruct t2 fs2).
  Proof.
    intros st t1 fs1 t2 fs2 NE IN1 IN2 SC1 SC2 IV C s1 s2 E1 E2.
    apply exec_GlobalStruct in E1. destruct E1 as [[G1 ->]|(ta1 & ty1 & G1 & N1 & ->)];
    apply exec_GlobalStruct in E2; destruct E2 as [[G2 ->]|(ta2 & ty2 & G2 & N2 & ->)];
      try rewrite gget_gset_other in G2 by auto; rewrite gget_set_types in G2.
    - eexists. eexists. exists (fun a => a), (swp (length (types st)) (Datatypes.S (length (types st)))).
      split. { apply run_GlobalStruct_alloc, G2. }
      split. { apply run_GlobalStruct_alloc. now rewrite gget_gset_other by auto. }
      simpl. rewrite !app_length. simpl. rewrite !Nat.add_1_r.
      pose proof (iso_gset _ _ _ _ (iso_gset _ _ _ _ (iso_swap_types st fs1 fs2 C SC1 SC2) t1 (VType (length (types st))))
                    t2 (VType (Datatypes.S (length (types st))))) as I.
      simpl rv in I. rewrite swp_l, swp_r in I. exact (iso_gset_comm _ _ _ _ _ _ _ _ NE I).
    - pose proof (inv_ty S st IV t2 ta2 IN2 G2) as A2.
      simpl in N2. rewrite nth_error_app1 in N2 by auto.
      eapply swap_eq; [eapply run_GlobalStruct_overwrite; eauto | apply run_GlobalStruct_alloc; rewrite gget_set_types; exact G1 |].
      unfold gset, set_types, set_globals. simpl. now rewrite upd_length, upd_app_l.
    - pose proof (nth_lt _ _ _ N1) as A1.
      eapply swap_eq; [apply run_GlobalStruct_alloc; eauto | |].
      + eapply run_GlobalStruct_overwrite; [rewrite gget_gset_other by auto; rewrite gget_set_types; eauto|].
        simpl. apply nth_app_old. eauto.
      + unfold gset, set_types, set_globals. simpl. now rewrite upd_length, upd_app_l.
    - assert (NA : ta1 <> ta2).
      { intros <-. apply NE. eapply (inv_tyinj S st IV); eauto. }
      simpl in N2. rewrite nth_upd_other in N2 by auto.
      eapply swap_eq; [eapply run_GlobalStruct_overwrite; eauto | |].
      + eapply run_GlobalStruct_overwrite; [rewrite gget_set_types; eauto|]. simpl. rewrite nth_upd_other by auto. eauto.
      + unfold set_types. simpl. now rewrite upd_comm.
  Qed.

  Lemma swap_MM : forall st t1 m1 b1 t2 m2 b2, (t1, m1) <> (t2, m2) -> In (t1, m1) (smethods S) -> In (t2, m2) (smethods S) ->
    Inv S st -> closed st -> swap_ok st (SetMethod t1 m1 b1) (SetMethod t2 m2 b2).
  Proof.
    intros st t1 m1 b1 t2 m2 b2 NE IN1 IN2 IV C s1 s2 E1 E2.
    apply (swap_keyed st (SetMethod t1 m1 b1) (SetMethod t2 m2 b2) _ _ s1 s2 eq_refl eq_refl); auto; [congruence|].
    intros F1 F2.
    destruct (exec_SetMethod _ _ _ _ _ E1) as (ta1 & ty1 & G1 & N1 & _). apply nth_lt in N1.
    destruct (exec_SetMethod _ _ _ _ _ E2) as (ta2 & ty2 & G2 & N2 & _). apply nth_lt in N2.
    pose proof (exec_fn_addr S WF st (SetMethod t1 m1 b1) s1 IN1 IV E1 (KMeth t2 m2) IN2) as F2'.
    rewrite F2, key_is_false in F2' by (simpl; congruence).
    rewrite (run_SetMethod_alloc _ _ _ _ _ G1 N1 F1) in E1. inv E1.
    rewrite (run_SetMethod_alloc _ _ _ _ _ G2 N2 F2') in E2. inv E2.
    rewrite add_method_length in N2.
    pose proof (run_SetMethod_alloc st t2 m2 b2 ta2 G2 N2 F2) as R2.
    pose proof (exec_fn_addr S WF st (SetMethod t2 m2 b2) _ IN2 IV R2 (KMeth t1 m1) IN1) as F1'.
    rewrite F1, key_is_false in F1' by (simpl; congruence).
    eexists. eexists. exists (swp (length (funcs st)) (Datatypes.S (length (funcs st)))), (fun a => a).
    split. { exact R2. }
    split. { apply (run_SetMethod_alloc _ t1 m1 b1 ta1); [exact G1 | rewrite add_method_length; exact N1 | exact F1']. }
    simpl. rewrite !app_length. simpl. rewrite !Nat.add_1_r.
    pose proof (iso_add_method _ _ _ _ ta2 m2 (VFunc (Datatypes.S (length (funcs st))))
                  (iso_add_method _ _ _ _ ta1 m1 (VFunc (length (funcs st))) (iso_swap_funcs st b1 b2 C))) as I.
    simpl rv in I. rewrite swp_l, swp_r in I. apply iso_add_method_comm in I; [exact I|].
    (* two methods of one type have different names *)
    destruct (Nat.eq_dec ta1 ta2) as [<-|]; auto. right. intros <-. apply NE. f_equal.
    eapply (inv_tyinj S st IV); eauto; eapply wf_meth; eauto.
  Qed.

  Lemma swap_indep : forall st x y, indep x y -> instr_ok S x -> instr_ok S y -> iscalar x -> iscalar y ->
    Inv S st -> closed st -> swap_ok st x y.
  Proof.
    intros st x y ID OX OY SX SY IV C.
    destruct x as [t1 fs1|t1 m1 b1|n1 b1|n1 z1|n1 e1]; destruct y as [t2 fs2|t2 m2 b2|n2 b2|n2 z2|n2 e2];
      simpl in ID; try contradiction.
    - apply swap_TT; auto.
    - apply swap_MM; auto.
    - apply swap_FF; auto.
  Qed.
End Swap.

Section Perm.
  Variable S : sig.
  Hypothesis WF : wf_sig S.

  (* a list of declarations of one level: declared, scalar constants, pairwise equal or of different keys *)
  Definition level_ok (l : list instr) : Prop :=
    Forall (fun i => instr_ok S i /\ iscalar i) l /\ forall x y, In x l -> In y l -> x = y \/ indep x y.

  Lemma level_ok_tail : forall x l, level_ok (x :: l) -> level_ok l.
  Proof. intros x l [A B]. inv A. split; auto. intros. apply B; simpl; auto. Qed.
  Lemma level_ok_perm : forall l l', Permutation l l' -> level_ok l -> level_ok l'.
  Proof.
    intros l l' P [A B]. split.
    - eapply Permutation_Forall; eauto.
    - intros x y X Y. apply Permutation_sym in P. apply B; eapply Permutation_in; eauto.
  Qed.
  Lemma level_ok_scalar : forall l, level_ok l -> Forall iscalar l.
  Proof. intros l [A _]. eapply Forall_impl; [|exact A]. intros i [_ H]. exact H. Qed.
  Lemma level_instr_ok : forall l, level_ok l -> Forall (instr_ok S) l.
  Proof. intros l [A _]. eapply Forall_impl; [|exact A]. intros i [H _]. exact H. Qed.

  Lemma level_map : forall {A} (f : A -> instr) l, (forall a, In a l -> instr_ok S (f a) /\ iscalar (f a)) ->
    (forall a b, In a l -> In b l -> f a = f b \/ indep (f a) (f b)) -> level_ok (map f l).
  Proof.
    intros A f l H1 H2. split.
    - apply Forall_map, Forall_forall. exact H1.
    - intros x y HX HY. apply in_map_iff in HX, HY. destruct HX as (a & <- & HA), HY as (b & <- & HB). auto.
  Qed.

  (* whatever l does from a good state, l' does, up to renaming, from any state isomorphic to it *)
  Definition sim_lists (l l' : list instr) : Prop :=
    forall st st' rf rt s, Inv S st -> closed st -> state_iso rf rt st st' -> exec_list st l = Some s ->
    exists s' rf' rt', exec_list st' l' = Some s' /\ state_iso rf' rt' s s'.

  Lemma sim_lists_refl : forall l, Forall iscalar l -> sim_lists l l.
  Proof. intros l SC st st' rf rt s _ _ I E. destruct (sim_exec_list _ _ _ _ _ _ SC I E) as (s' & E' & I'). eauto. Qed.

  Lemma sim_lists_trans : forall l l' l'', sim_lists l l' -> sim_lists l' l'' -> sim_lists l l''.
  Proof.
    intros l l' l'' H1 H2 st st' rf rt s IV C I E.
    destruct (H1 st st _ _ s IV C (state_iso_refl st) E) as (sm & rf1 & rt1 & Em & Im).
    destruct (H2 st st' rf rt sm IV C I Em) as (s' & rf2 & rt2 & E' & I').
    exists s'. eexists. eexists. split; [exact E'|]. eapply state_iso_trans; eauto.
  Qed.

  Lemma sim_lists_app : forall a a' b b', Forall (instr_ok S) a -> Forall iscalar a ->
    sim_lists a a' -> sim_lists b b' -> sim_lists (a ++ b) (a' ++ b').
  Proof.
    intros a a' b b' OK SC HA HB st st' rf rt s IV C I E. rewrite exec_list_app in *.
    destruct (exec_list st a) as [s1|] eqn:E1; try discriminate.
    destruct (HA _ _ _ _ _ IV C I E1) as (s1' & rf1 & rt1 & -> & I1).
    apply (HB s1 s1' rf1 rt1); auto.
    - eapply exec_list_inv; eauto.
    - eapply closed_exec_list; eauto.
  Qed.

  Lemma swap_sim : forall x y, instr_ok S x /\ iscalar x -> instr_ok S y /\ iscalar y -> y = x \/ indep y x ->
    sim_lists [y; x] [x; y].
  Proof.
    intros x y [OX SX] [OY SY] [<-|ID]; [apply sim_lists_refl; auto|].
    intros st st' rf rt s IV C I E. simpl in E.
    destruct (exec_instr st y) as [s1|] eqn:E1; try discriminate.
    destruct (exec_instr s1 x) as [s2|] eqn:E2; inv E.
    destruct (swap_indep S WF st y x ID OY OX SY SX IV C s1 s E1 E2) as (s1b & s2b & rf1 & rt1 & F1 & F2 & IS).
    destruct (sim_exec_instr _ _ _ _ _ _ SX I F1) as (s1b' & F1' & I1).
    destruct (sim_exec_instr _ _ _ _ _ _ SY I1 F2) as (s2b' & F2' & I2).
    exists s2b'. eexists. eexists. simpl. rewrite F1', F2'. split; [reflexivity|]. eapply state_iso_trans; eauto.
  Qed.

  Lemma perm_exec : forall l l', Permutation l l' -> level_ok l -> sim_lists l l'.
  Proof.
    induction 1 as [|x l l' P IH|x y l|l l' l'' P1 IH1 P2 IH2]; intros LO.
    - apply sim_lists_refl. constructor.
    - pose proof (level_instr_ok _ LO) as OK. pose proof (level_ok_scalar _ LO) as SC. inv OK. inv SC.
      apply (sim_lists_app [x] [x]); eauto using level_ok_tail, sim_lists_refl.
    - pose proof (level_instr_ok _ LO) as OK. pose proof (level_ok_scalar _ LO) as SC. inv OK. inv SC. inv H2. inv H4.
      apply (sim_lists_app [y; x] [x; y]); auto using sim_lists_refl.
      apply swap_sim; auto. apply (proj2 LO); simpl; auto.
    - eapply sim_lists_trans; eauto using level_ok_perm.
  Qed.

  Lemma level_sim : forall l l' r r', level_ok l -> Permutation l l' -> sim_lists r r' -> sim_lists (l ++ r) (l' ++ r').
  Proof. intros. apply sim_lists_app; eauto using level_instr_ok, level_ok_scalar, perm_exec. Qed.
End Perm.

Definition sig_perm (S S' : sig) : Prop :=
  Permutation (stypes S) (stypes S') /\ Permutation (smethods S) (smethods S') /\
  Permutation (sfuncs S) (sfuncs S') /\ svars S = svars S'.

(* the constants of the declarations are scalars: what ZERO ty produces *)
Definition sig_scalar (S : sig) : Prop :=
  (forall t fs, In (t, fs) (stypes S) -> kv_scalar fs) /\ (forall n z, In (VZero n z) (svars S) -> scalar z).

Lemma sig_perm_sym : forall S S', sig_perm S S' -> sig_perm S' S.
Proof. intros S S' (A & B & C & D). repeat split; auto using Permutation_sym. Qed.
Lemma sig_perm_refl : forall S, sig_perm S S.
Proof. intros. repeat split; auto. Qed.
Lemma sig_scalar_perm : forall S S', sig_perm S S' -> sig_scalar S -> sig_scalar S'.
Proof.
  intros S S' (A & _ & _ & D) [X Y]. split.
  - intros t fs HI. eapply X. eapply Permutation_in; [apply Permutation_sym|]; eauto.
  - intros n z HI. rewrite <- D in HI. eauto.
Qed.
Lemma tnames_perm : forall S S', sig_perm S S' -> Permutation (tnames S) (tnames S').
Proof. intros S S' (A & _). unfold tnames. now apply Permutation_map. Qed.
Lemma vnames_perm : forall S S', sig_perm S S' -> vnames S = vnames S'.
Proof. intros S S' (_ & _ & _ & D). unfold vnames. now rewrite D. Qed.
Lemma key_ok_perm : forall S S' k, sig_perm S S' -> key_ok S k -> key_ok S' k.
Proof. intros S S' k (_ & B & C & _). destruct k; simpl; intros; eapply Permutation_in; eauto. Qed.
Lemma instr_ok_perm : forall S S' i, sig_perm S S' -> instr_ok S i -> instr_ok S' i.
Proof.
  intros S S' i P. pose proof (tnames_perm _ _ P) as T. pose proof (vnames_perm _ _ P) as V.
  destruct P as (_ & B & C & _). destruct i; simpl; intros; try (rewrite <- V; auto); eapply Permutation_in; eauto.
Qed.
Lemma Inv_perm : forall S S' st, sig_perm S S' -> Inv S st -> Inv S' st.
Proof.
  intros S S' st P [A B C D]. pose proof (sig_perm_sym _ _ P) as P'.
  pose proof (tnames_perm _ _ P') as T.
  split.
  - intros k a K. apply A. eapply key_ok_perm; eauto.
  - intros k k' a K K'. apply B; eapply key_ok_perm; eauto.
  - intros t ta HI. apply C. eapply Permutation_in; eauto.
  - intros t t' ta HI HI'. apply D; eapply Permutation_in; eauto.
Qed.

Lemma wf_sig_perm : forall S S', sig_perm S S' -> wf_sig S -> wf_sig S'.
Proof.
  intros S S' P [A B C]. pose proof (tnames_perm _ _ P) as T. pose proof (vnames_perm _ _ P) as V.
  destruct P as (PT & PM & PF & _). split.
  - rewrite <- V. eapply Permutation_NoDup; [|exact A].
    apply Permutation_app; auto. apply Permutation_app; auto.
  - intros t m HI. eapply Permutation_in; [exact T|]. eapply B. eapply Permutation_in; [apply Permutation_sym|]; eauto.
  - intros t fs HI. eapply C. eapply Permutation_in; [apply Permutation_sym|]; eauto.
Qed.


Section Version.
  Variable S : sig.
  Hypothesis WF : wf_sig S.
  Hypothesis SC : sig_scalar S.
  Variable B : bodies.

  Lemma Ts_level : level_ok S (Ts S).
  Proof.
    apply level_map.
    - intros [t fs] HI. split; simpl; [apply (in_map fst _ _ HI) | eapply (proj1 SC); eauto].
    - intros [t1 fs1] [t2 fs2] H1 H2. simpl. destruct (Z.eq_dec t1 t2) as [->|NE]; [left|right; auto].
      destruct (NoDup_app_inv _ _ (wf_names S WF)) as (ND & _).
      pose proof (lookup_nodup _ _ _ ND H1) as L1. rewrite (lookup_nodup _ _ _ ND H2) in L1. congruence.
  Qed.
  Lemma Ms_level : level_ok S (Ms S B).
  Proof.
    apply level_map.
    - intros [t m] HI. split; simpl; auto.
    - intros [t1 m1] [t2 m2] _ _. simpl.
      destruct (Z.eq_dec t1 t2) as [->|NE]; [destruct (Z.eq_dec m1 m2) as [->|NE]|]; auto; right; congruence.
  Qed.
  Lemma Fs_level : level_ok S (Fs S B).
  Proof.
    apply level_map.
    - intros n HI. split; simpl; auto.
    - intros n1 n2 _ _. simpl. destruct (Z.eq_dec n1 n2) as [->|NE]; auto.
  Qed.
  Lemma Vs_scalar : Forall iscalar (Vs S).
  Proof.
    apply Forall_forall. intros i HI. apply in_map_iff in HI. destruct HI as ([n z|n e] & <- & HI); simpl; auto.
    eapply (proj2 SC); eauto.
  Qed.
  Lemma version_scalar : Forall iscalar (version_of S B).
  Proof.
    rewrite version_of_eq. repeat rewrite Forall_app. repeat split.
    - apply (level_ok_scalar S _ Ts_level).
    - apply (level_ok_scalar S _ Ms_level).
    - apply (level_ok_scalar S _ Fs_level).
    - apply Vs_scalar.
  Qed.
  (* one direction: if the version loads in the order of S, it loads in the order of S', with an isomorphic result *)
  Lemma commute_fwd : forall S' st s, sig_perm S S' -> Inv S st -> closed st ->
    exec_list st (version_of S B) = Some s ->
    exists s' rf rt, exec_list st (version_of S' B) = Some s' /\ state_iso rf rt s s'.
  Proof.
    intros S' st s (PT & PM & PF & PV) IV C E. rewrite !version_of_eq in *.
    assert (SL : sim_lists S (Ts S ++ Ms S B ++ Fs S B ++ Vs S) (Ts S' ++ Ms S' B ++ Fs S' B ++ Vs S')).
    { apply (level_sim S WF); [apply Ts_level | exact (Permutation_map _ PT) |].
      apply (level_sim S WF); [apply Ms_level | exact (Permutation_map _ PM) |].
      apply (level_sim S WF); [apply Fs_level | exact (Permutation_map _ PF) |].
      unfold Vs. rewrite <- PV. apply sim_lists_refl, Vs_scalar. }
    exact (SL st st _ _ s IV C (state_iso_refl st) E).
  Qed.
End Version.

(* both runs fail, or both succeed with isomorphic results *)
Definition outcome_iso (o o' : option state) : Prop :=
  match o, o' with
  | Some s, Some s' => exists rf rt, state_iso rf rt s s'
  | None, None => True
  | _, _ => False
  end.

(* from any closed state that satisfies the invariant of the reload machine *)
Theorem c16_commute_from : forall S S' B st, wf_sig S -> wf_sig S' -> sig_perm S S' -> sig_scalar S ->
  Inv S st -> closed st ->
  outcome_iso (exec_list st (version_of S B)) (exec_list st (version_of S' B)).
Proof.
  intros S S' B st WF WF' P SC IV C. unfold outcome_iso.
  destruct (exec_list st (version_of S B)) as [s|] eqn:E.
  - destruct (commute_fwd S WF SC B S' st s P IV C E) as (s' & rf & rt & E' & I). rewrite E'. eauto.
  - destruct (exec_list st (version_of S' B)) as [s'|] eqn:E'; auto.
    destruct (commute_fwd S' WF' (sig_scalar_perm _ _ P SC) B S st s' (sig_perm_sym _ _ P) (Inv_perm _ _ _ P IV) C E')
      as (s & rf & rt & E2 & I). congruence.
Qed.

Theorem c16_commute : forall S S' B, wf_sig S -> wf_sig S' ->
  Permutation (stypes S) (stypes S') -> Permutation (smethods S) (smethods S') ->
  Permutation (sfuncs S) (sfuncs S') -> svars S = svars S' -> sig_scalar S ->
  outcome_iso (exec_list init_state (version_of S B)) (exec_list init_state (version_of S' B)).
Proof.
  intros S S' B WF WF' PT PM PF PV SC. apply c16_commute_from; auto.
  - repeat split; auto.
  - now apply inv_init.
  - apply closed_init.
Qed.

(* reloading into a VM that already loaded earlier versions, in any declaration orders *)
Inductive reach (S : sig) : state -> Prop :=
| reach_init : reach S init_state
| reach_load : forall st S1 B1 st', reach S st -> sig_perm S S1 ->
    exec_list st (version_of S1 B1) = Some st' -> reach S st'.

Lemma reach_inv : forall S st, wf_sig S -> sig_scalar S -> reach S st -> Inv S st /\ closed st.
Proof.
  intros S st WF SC R. induction R as [|st S1 B1 st' R [IV C] P E].
  - split. now apply inv_init. apply closed_init.
  - pose proof (wf_sig_perm _ _ P WF) as WF1. pose proof (sig_scalar_perm _ _ P SC) as SC1. split.
    + apply (Inv_perm S1 S); [now apply sig_perm_sym|].
      eapply (exec_list_inv S1 WF1); [apply (version_ok S1 B1) | eapply Inv_perm; eauto | exact E].
    + eapply closed_exec_list; [apply (version_scalar S1 WF1 SC1 B1) | exact C | exact E].
Qed.

Theorem c16_commute_reload : forall S S' B st, wf_sig S -> wf_sig S' ->
  Permutation (stypes S) (stypes S') -> Permutation (smethods S) (smethods S') ->
  Permutation (sfuncs S) (sfuncs S') -> svars S = svars S' -> sig_scalar S ->
  reach S st ->
  outcome_iso (exec_list st (version_of S B)) (exec_list st (version_of S' B)).
Proof.
  intros S S' B st WF WF' PT PM PF PV SC R. destruct (reach_inv S st WF SC R) as [IV C].
  apply c16_commute_from; auto. repeat split; auto.
Qed.

Lemma iso_fn_addr : forall rf rt s s' k, state_iso rf rt s s' -> fn_addr s' k = option_map rf (fn_addr s k).
Proof.
  intros rf rt s s' k I. destruct k as [n|t m]; simpl; rewrite (iso_globals _ _ _ _ I).
  - destruct (gget s n); reflexivity.
  - destruct (gget s t) as [| | |ta|]; simpl; auto.
    destruct (nth_error (types s) ta) as [ty|] eqn:N.
    + destruct (iso_types _ _ _ _ I _ _ N) as (ty' & N' & _ & M). rewrite N', M.
      destruct (lookup m (tmethods ty)) as [[]|]; reflexivity.
    + now rewrite (renaming_none _ _ _ (types s') _ (iso_rt _ _ _ _ I) eq_refl (iso_tlen _ _ _ _ I) N).
Qed.

(* every declared function and method has a function object on both sides, at corresponding addresses,
   holding the body the version gives it; any key (declared or not) has an address on one side iff on the other *)
Theorem c16_commute_fn_bodies : forall S S' B s s', wf_sig S -> wf_sig S' ->
  Permutation (stypes S) (stypes S') -> Permutation (smethods S) (smethods S') ->
  Permutation (sfuncs S) (sfuncs S') -> svars S = svars S' -> sig_scalar S ->
  exec_list init_state (version_of S B) = Some s -> exec_list init_state (version_of S' B) = Some s' ->
  exists rf rt, state_iso rf rt s s' /\
    (forall k, fn_addr s' k = option_map rf (fn_addr s k)) /\
    (forall k, key_ok S k -> exists a,
       fn_addr s k = Some a /\ fn_addr s' k = Some (rf a) /\
       nth_error (funcs s) a = Some (FBody (body_of B k)) /\
       nth_error (funcs s') (rf a) = Some (FBody (body_of B k))).
Proof.
  intros S S' B s s' WF WF' PT PM PF PV SC E E'.
  pose proof (c16_commute S S' B WF WF' PT PM PF PV SC) as H. rewrite E, E' in H. destruct H as (rf & rt & I).
  exists rf, rt. split; auto. split. { intro k. eapply iso_fn_addr; eauto. }
  intros k KO. destruct (version_ok S B) as [OK BO].
  destruct (exec_list_defined S WF _ _ _ OK (inv_init S) E k KO (version_has_key S B k KO)) as [a F].
  destruct (exec_list_latest S WF B _ _ _ OK BO (inv_init S) E k a KO F) as [Y _].
  specialize (Y (version_has_key S B k KO)).
  exists a. repeat split; auto.
  - rewrite (iso_fn_addr _ _ _ _ k I), F. reflexivity.
  - apply (iso_funcs _ _ _ _ I _ _ Y).
Qed.

Section SimRun.
  Variables rf rt : addr -> addr.
  Variable prog : nat -> list instr.
  Hypothesis PS : forall v, Forall iscalar (prog v).

  Lemma sim_step : forall o st st' st1 ob, state_iso rf rt st st' -> step prog st o = Some (st1, ob) ->
    exists st1', step prog st' o = Some (st1', ob) /\ state_iso rf rt st1 st1'.
  Proof.
    intros o st st' st1 ob I E. destruct o as [v|l e|p|p q]; simpl in *.
    - destruct (exec_list st (prog v)) as [s1|] eqn:E1; inv E.
      destruct (sim_exec_list _ _ _ _ _ _ (PS v) I E1) as (s1' & E1' & I1). rewrite E1'. eauto.
    - destruct (eval_expr st e) as [[s1 w]|] eqn:E1; try discriminate.
      destruct (sim_eval_expr _ _ _ _ _ _ _ I E1) as (s1' & E1' & I1). rewrite E1'.
      destruct (store s1 l w) as [s2|] eqn:E2; inv E.
      destruct (sim_store _ _ _ _ _ _ _ I1 E2) as (s2' & E2' & I2). rewrite E2'. eauto.
    - destruct (eval_path st p) as [[s1 w]|] eqn:E1; try discriminate.
      destruct (sim_eval_path _ _ _ _ _ _ _ I E1) as (s1' & E1' & I1). rewrite E1'.
      rewrite (sim_call_obs _ _ _ _ w I1). destruct (call_obs s1 w); inv E. eauto.
    - destruct (eval_path st p) as [[s1 w]|] eqn:E1; try discriminate.
      destruct (sim_eval_path _ _ _ _ _ _ _ I E1) as (s1' & E1' & I1). rewrite E1'.
      destruct (eval_path s1 q) as [[s2 w2]|] eqn:E2; try discriminate.
      destruct (sim_eval_path _ _ _ _ _ _ _ I1 E2) as (s2' & E2' & I2). rewrite E2'.
      rewrite (sim_same_obj _ _ _ _ w w2 I2). destruct (same_obj w w2); inv E. eauto.
  Qed.

  Lemma sim_run : forall h st st' st1 obs, state_iso rf rt st st' -> run prog st h = Some (st1, obs) ->
    exists st1', run prog st' h = Some (st1', obs) /\ state_iso rf rt st1 st1'.
  Proof.
    induction h as [|o h IH]; simpl; intros st st' st1 obs I E.
    - inv E. eauto.
    - destruct (step prog st o) as [[s1 ob]|] eqn:E1; try discriminate.
      destruct (sim_step _ _ _ _ _ I E1) as (s1' & E1' & I1). rewrite E1'.
      destruct (run prog s1 h) as [[s2 obs2]|] eqn:E2; inv E.
      destruct (IH _ _ _ _ I1 E2) as (s2' & E2' & I2). rewrite E2'. eauto.
  Qed.
End SimRun.

(* a call through corresponding values, and through any path, observes the same body and receiver *)
Theorem c16_commute_calls : forall S S' B s s', wf_sig S -> wf_sig S' ->
  Permutation (stypes S) (stypes S') -> Permutation (smethods S) (smethods S') ->
  Permutation (sfuncs S) (sfuncs S') -> svars S = svars S' -> sig_scalar S ->
  exec_list init_state (version_of S B) = Some s -> exec_list init_state (version_of S' B) = Some s' ->
  exists rf rt, state_iso rf rt s s' /\
    (forall v, call_obs s' (rv rf rt v) = call_obs s v) /\
    (forall n, gget s' n = rv rf rt (gget s n)) /\
    (forall p s1 v, eval_path s p = Some (s1, v) ->
       exists s1', eval_path s' p = Some (s1', rv rf rt v) /\ call_obs s1' (rv rf rt v) = call_obs s1 v).
Proof.
  intros S S' B s s' WF WF' PT PM PF PV SC E E'.
  pose proof (c16_commute S S' B WF WF' PT PM PF PV SC) as H. rewrite E, E' in H. destruct H as (rf & rt & I).
  exists rf, rt. split; auto. split; [|split].
  - intro v. now apply sim_call_obs.
  - apply (iso_globals _ _ _ _ I).
  - intros p s1 v EP. destruct (sim_eval_path _ _ _ _ _ _ _ I EP) as (s1' & EP' & I1).
    exists s1'. split; auto. now apply sim_call_obs.
Qed.

(* no history of later loads (of any scalar programs), stores, calls and identity tests tells the two VMs apart *)
Theorem c16_commute_run : forall S S' B s s', wf_sig S -> wf_sig S' ->
  Permutation (stypes S) (stypes S') -> Permutation (smethods S) (smethods S') ->
  Permutation (sfuncs S) (sfuncs S') -> svars S = svars S' -> sig_scalar S ->
  exec_list init_state (version_of S B) = Some s -> exec_list init_state (version_of S' B) = Some s' ->
  forall prog h, (forall v, Forall iscalar (prog v)) ->
    option_map snd (run prog s h) = option_map snd (run prog s' h).
Proof.
  intros S S' B s s' WF WF' PT PM PF PV SC E E' prog h PS.
  assert (P : sig_perm S S') by (repeat split; auto).
  pose proof (c16_commute_from S S' B _ WF WF' P SC (inv_init S) closed_init) as H.
  rewrite E, E' in H. destruct H as (rf & rt & I).
  pose proof (c16_commute_from S' S B _ WF' WF (sig_perm_sym _ _ P) (sig_scalar_perm _ _ P SC) (inv_init S') closed_init) as H.
  rewrite E, E' in H. destruct H as (rf' & rt' & I').
  destruct (run prog s h) as [[s2 obs]|] eqn:R.
  - destruct (sim_run _ _ _ PS _ _ _ _ _ I R) as (s2' & R' & _). now rewrite R'.
  - destruct (run prog s' h) as [[s2' obs']|] eqn:R'; auto.
    destruct (sim_run _ _ _ PS _ _ _ _ _ I' R') as (s2 & R2 & _). congruence.
Qed.

(* the renamings are bijections between the two heaps *)
Lemma state_iso_bijective : forall rf rt s s', state_iso rf rt s s' ->
  (forall a b, rf a = rf b -> a = b) /\ (forall a b, rt a = rt b -> a = b) /\
  (forall b, b < length (funcs s') -> exists a, a < length (funcs s) /\ rf a = b) /\
  (forall b, b < length (types s') -> exists a, a < length (types s) /\ rt a = b).
Proof.
  intros rf rt s s' I. pose proof (iso_rf _ _ _ _ I) as RF. pose proof (iso_rt _ _ _ _ I) as RT.
  repeat split.
  - intros a b. eapply renaming_inj; eauto.
  - intros a b. eapply renaming_inj; eauto.
  - intros b LT. rewrite (iso_flen _ _ _ _ I) in LT. destruct (renaming_surj _ _ RF b) as (a & E & L). eauto.
  - intros b LT. rewrite (iso_tlen _ _ _ _ I) in LT. destruct (renaming_surj _ _ RT b) as (a & E & L). eauto.
Qed.

Module Example.
  Open Scope Z_scope.
  Definition B0 := mkBodies (fun n => 100 + n) (fun t m => 1000 + 10 * t + m).
  (* type T1 struct{f11 int; f12 *T}; type T2 struct{f11 int}; func (T1) m21; func (T2) m22; func (T1) m22;
     func f3; func f4; var v5 int; var v6 = f4; var v7 = &T2{f11: 7}; var v8 = v7.m22 *)
  Definition vars := [VZero 5 (VInt 0); VSet 6 (EArg (APath (PGlobal 4))); VSet 7 (ENew 2 [(11, AConst 7)]);
                      VSet 8 (EArg (APath (PAttr (PGlobal 7) 22)))].
  Definition S1 := mkSig [(1, [(11, VInt 0); (12, VNil)]); (2, [(11, VInt 0)])] [(1, 21); (2, 22); (1, 22)] [3; 4] vars.
  Definition S2 := mkSig [(2, [(11, VInt 0)]); (1, [(11, VInt 0); (12, VNil)])] [(1, 22); (2, 22); (1, 21)] [4; 3] vars.

  Ltac nodup := repeat constructor; simpl; intuition congruence.
  Lemma wf1 : wf_sig S1.
  Proof.
    split.
    - nodup.
    - simpl. intros t m [H|[H|[H|[]]]]; inv H; auto.
    - simpl. intros t fs [H|[H|[]]]; inv H; nodup.
  Qed.
  Lemma pt : Permutation (stypes S1) (stypes S2). Proof. apply perm_swap. Qed.
  Lemma pm : Permutation (smethods S1) (smethods S2).
  Proof.
    simpl. eapply perm_trans; [apply perm_swap|]. eapply perm_trans; [apply perm_skip, perm_swap|]. apply perm_swap.
  Qed.
  Lemma pf : Permutation (sfuncs S1) (sfuncs S2). Proof. apply perm_swap. Qed.
  Lemma wf2 : wf_sig S2.
  Proof. exact (wf_sig_perm S1 S2 (conj pt (conj pm (conj pf eq_refl))) wf1). Qed.
  Lemma sc1 : sig_scalar S1.
  Proof.
    split; simpl.
    - intros t fs [H|[H|[]]]; inv H; repeat constructor.
    - intros n z [H|[H|[H|[H|[]]]]]; inv H. exact Logic.I.
  Qed.

  (* the theorem applies, both orders load, and the function objects really sit at different addresses:
     a non-trivial renaming is needed *)
  Example c16_example :
    wf_sig S1 /\ wf_sig S2 /\ sig_scalar S1 /\
    Permutation (stypes S1) (stypes S2) /\ stypes S1 <> stypes S2 /\
    Permutation (smethods S1) (smethods S2) /\ smethods S1 <> smethods S2 /\
    Permutation (sfuncs S1) (sfuncs S2) /\ sfuncs S1 <> sfuncs S2 /\ svars S1 = svars S2 /\
    exists s s', exec_list init_state (version_of S1 B0) = Some s /\ exec_list init_state (version_of S2 B0) = Some s' /\
      (exists rf rt, state_iso rf rt s s') /\
      fn_addr s (KFunc 3) = Some 3%nat /\ fn_addr s' (KFunc 3) = Some 4%nat /\
      fn_addr s (KMeth 1 21) = Some 0%nat /\ fn_addr s' (KMeth 1 21) = Some 2%nat /\
      gget s 1 = VType 0%nat /\ gget s' 1 = VType 1%nat /\
      gget s 6 = VFunc 4%nat /\ gget s' 6 = VFunc 3%nat /\
      call_obs s (gget s 6) = Some (OCall 104 None) /\ call_obs s' (gget s' 6) = Some (OCall 104 None) /\
      call_obs s (gget s 8) = Some (OCall 1042 (Some 0%nat)) /\ call_obs s' (gget s' 8) = Some (OCall 1042 (Some 0%nat)) /\
      globals s <> globals s'.
  Proof.
    split; [exact wf1|]. split; [exact wf2|]. split; [exact sc1|].
    split; [exact pt|]. split; [discriminate|]. split; [exact pm|]. split; [discriminate|].
    split; [exact pf|]. split; [discriminate|]. split; [reflexivity|].
    pose proof (c16_commute S1 S2 B0 wf1 wf2 pt pm pf eq_refl sc1) as H.
    destruct (exec_list init_state (version_of S1 B0)) as [s|] eqn:E; [|vm_compute in E; discriminate E].
    destruct (exec_list init_state (version_of S2 B0)) as [s'|] eqn:E'; [|vm_compute in E'; discriminate E'].
    exists s, s'. split; auto. split; auto. split; [exact H|].
    vm_compute in E. vm_compute in E'. inv E. inv E'. vm_compute. repeat split; discriminate.
  Qed.

  (* without the scalar hypothesis the statement is false in this model: `var v5 T` whose zero value is a raw
     function address (which no compiled program contains) calls f3 after one order and f4 after the other *)
  Definition S3 := mkSig [] [] [3; 4] [VZero 5 (VFunc 0%nat)].
  Definition S4 := mkSig [] [] [4; 3] [VZero 5 (VFunc 0%nat)].
  Example c16_needs_scalar :
    wf_sig S3 /\ wf_sig S4 /\ Permutation (sfuncs S3) (sfuncs S4) /\ ~ sig_scalar S3 /\
    exists s s', exec_list init_state (version_of S3 B0) = Some s /\ exec_list init_state (version_of S4 B0) = Some s' /\
      call_obs s (gget s 5) = Some (OCall 103 None) /\ call_obs s' (gget s' 5) = Some (OCall 104 None) /\
      ~ exists rf rt, state_iso rf rt s s'.
  Proof.
    split. { split; [nodup | simpl; tauto | simpl; tauto]. }
    split. { split; [nodup | simpl; tauto | simpl; tauto]. }
    split. { apply perm_swap. }
    split. { intros [_ H]. apply (H 5 (VFunc 0%nat)). simpl. auto. }
    eexists. eexists. split. { vm_compute. reflexivity. } split. { vm_compute. reflexivity. }
    split. { reflexivity. } split. { reflexivity. }
    intros (rf & rt & I).
    pose proof (sim_call_obs _ _ _ _ (VFunc 0%nat) I) as H.
    pose proof (iso_globals _ _ _ _ I 5) as G. vm_compute in G. injection G as G.
    unfold rv in H. rewrite <- G in H. vm_compute in H. discriminate.
  Qed.
End Example.

Print Assumptions c16_commute_from.
Print Assumptions c16_commute.
Print Assumptions c16_commute_reload.
Print Assumptions c16_commute_fn_bodies.
Print Assumptions c16_commute_calls.
Print Assumptions c16_commute_run.
Print Assumptions state_iso_bijective.
Print Assumptions Example.c16_example.
Print Assumptions Example.c16_needs_scalar.
