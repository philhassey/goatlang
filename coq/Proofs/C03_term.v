(* C03: termination facts about the Pratt expression loop (Model/Pratt.v).
   1. it never runs out of the budget |tokens|+1, for ANY token list (C05 shows this only for the lists it
      accepts) and ANY binding-power table;
   2. its recursion depth is bounded by the number of tokens (and grows linearly with the nesting). *)
From Coq Require Import ZArith List String Bool Lia PeanoNat.
From GV Require Import GoSpec.GoPrec Model.Pratt Proofs.C05_pratt.
Import ListNotations.
Open Scope string_scope.
Open Scope Z_scope.

Section PrattTotal.
  Variable lbp : string -> Z.
  Variable infix : string -> bool.
  Variables neg_rbp compl_rbp not_rbp paren_rbp : Z.

  Notation expr := (Pratt.expr lbp infix neg_rbp compl_rbp not_rbp paren_rbp).
  Notation led_loop := (Pratt.led_loop lbp infix neg_rbp compl_rbp not_rbp paren_rbp).
  Notation nud := (C05_pratt.nud lbp infix neg_rbp compl_rbp not_rbp paren_rbp).
  Notation len := (@List.length tok).

  (* what a prefix form adds to the recursive call it makes: its result is the call's result with no
     token given back, its fuel error is the call's fuel error *)
  Lemma nud_call : forall fuel ts,
    match nud fuel ts with
    | inl (_, rest) => exists x r, ts = x :: r /\
        (rest = r \/ exists rb e r', expr fuel rb r = inl (e, r') /\ (len rest <= len r')%nat)
    | inr PErrFuel => exists x r rb, ts = x :: r /\ expr fuel rb r = inr PErrFuel
    | inr PErrSyntax => True
    end.
  Proof.
    intros fuel [|[i s|s] r]; cbn; [trivial|eauto|].
    destruct (String.eqb s "(").
    { destruct (expr fuel paren_rbp r) as [[e [|[i c|c] r']]|[|]] eqn:E; [trivial|trivial| |eauto|trivial].
      destruct (String.eqb c ")"); [|trivial]. exists (TSym s), r. split; [reflexivity|right].
      exists paren_rbp, e, (TSym c :: r'). cbn. auto. }
    destruct (String.eqb s "-"); [|destruct (String.eqb s "^"); [|destruct (String.eqb s "!"); [|trivial]]];
      match goal with |- context [expr fuel ?rb r] => destruct (expr fuel rb r) as [[e r']|[|]] eqn:E end; eauto 10.
  Qed.

  Lemma nud_shrink : forall fuel,
    (forall rbp ts t rest, expr fuel rbp ts = inl (t, rest) -> (len rest < len ts)%nat) ->
    forall ts t rest, nud fuel ts = inl (t, rest) -> (len rest < len ts)%nat.
  Proof.
    intros fuel IHe ts t rest H. pose proof (nud_call fuel ts) as N. rewrite H in N.
    destruct N as (x & r & -> & [-> | (rb & e & r' & E & L)]); [|apply IHe in E]; cbn; lia.
  Qed.

  Lemma shrink : forall fuel,
    (forall rbp ts t rest, expr fuel rbp ts = inl (t, rest) -> (len rest < len ts)%nat) /\
    (forall rbp lft ts t rest, led_loop fuel rbp lft ts = inl (t, rest) -> (len rest <= len ts)%nat).
  Proof.
    induction fuel as [|fuel [IHe IHl]].
    - split; [intros; discriminate|]. intros rbp lft ts t rest H. rewrite led_O in H.
      destruct (rbp <? cur_lbp lbp ts); [discriminate|]. inversion H; subst. lia.
    - split.
      + intros rbp ts t rest H. rewrite expr_S in H.
        destruct (nud fuel ts) as [[lft r]|] eqn:En; [|discriminate].
        apply (nud_shrink fuel IHe) in En. apply IHl in H. lia.
      + intros rbp lft ts t rest H. rewrite led_S in H.
        destruct ts as [|[i s|s] r]; try (inversion H; subst; lia).
        destruct (rbp <? lbp s); [|inversion H; subst; lia].
        destruct (infix s); [|discriminate].
        destruct (expr fuel (lbp s) r) as [[rgt r']|] eqn:E; [|discriminate].
        apply IHe in E. apply IHl in H. cbn. lia.
  Qed.

  Lemma no_fuel : forall fuel,
    (forall rbp ts, (len ts < fuel)%nat -> expr fuel rbp ts <> inr PErrFuel) /\
    (forall rbp lft ts, (len ts < fuel)%nat -> led_loop fuel rbp lft ts <> inr PErrFuel).
  Proof.
    induction fuel as [|fuel [IHe IHl]]; [split; intros; lia|].
    assert (Hnud : forall ts, (len ts < S fuel)%nat -> nud fuel ts <> inr PErrFuel).
    { intros ts Hl E. pose proof (nud_call fuel ts) as N. rewrite E in N.
      destruct N as (x & r & rb & -> & N). apply IHe in N; [exact N|]. cbn in Hl. lia. }
    split.
    - intros rbp ts Hl. rewrite expr_S. specialize (Hnud ts Hl).
      destruct (nud fuel ts) as [[lft r]|e] eqn:En; [|congruence].
      apply IHl.
      apply (nud_shrink fuel (proj1 (shrink fuel))) in En. lia.
    - intros rbp lft ts Hl. rewrite led_S.
      destruct ts as [|[i s|s] r]; try discriminate.
      destruct (rbp <? lbp s); [|discriminate]. destruct (infix s); [|discriminate]. cbn in Hl.
      assert (Hr : (len r < fuel)%nat) by lia.
      pose proof (IHe (lbp s) r Hr) as H.
      destruct (expr fuel (lbp s) r) as [[rgt r']|e] eqn:E; [|congruence].
      apply IHl. apply (proj1 (shrink fuel)) in E. lia.
  Qed.
End PrattTotal.

Theorem expr_consumes : forall lbp infix neg_rbp compl_rbp not_rbp paren_rbp fuel rbp ts t rest,
  Pratt.expr lbp infix neg_rbp compl_rbp not_rbp paren_rbp fuel rbp ts = inl (t, rest) ->
  (List.length rest < List.length ts)%nat.
Proof. intros until fuel. apply shrink. Qed.

Theorem pratt_terminates : forall lbp infix neg_rbp compl_rbp not_rbp paren_rbp fuel rbp ts,
  (List.length ts < fuel)%nat ->
  Pratt.expr lbp infix neg_rbp compl_rbp not_rbp paren_rbp fuel rbp ts <> inr PErrFuel.
Proof. intros. apply (proj1 (no_fuel lbp infix neg_rbp compl_rbp not_rbp paren_rbp fuel)). assumption. Qed.

(* Recursion depth of the expression loop.  exprD is Pratt.expr with a second budget d that is spent only by
   NESTED calls (the operand of a prefix operator, the inside of a parenthesis, the right operand of a binary operator): d bounds the
   depth of the Go call stack of doExpression.  |tokens|+1 frames always suffice; a nest of n
   parentheses needs more than n frames (c03_depth_witness in Props/C03.v). *)
Inductive derr := DDepth | DErr (e : perr).

Section PrattDepth.
  Variable lbp : string -> Z.
  Variable infix : string -> bool.
  Variables neg_rbp compl_rbp not_rbp paren_rbp : Z.

  Fixpoint exprD (d : nat) (fuel : nat) (rbp : Z) (ts : list tok) {struct fuel} : (tree * list tok) + derr :=
    match d with
    | O => inr DDepth
    | S d' =>
      match fuel with
      | O => inr (DErr PErrFuel)
      | S fuel =>
          let nud :=
            match ts with
            | [] => inr (DErr PErrSyntax)
            | TAtom i s :: rest => inl (Atom i s, rest)
            | TSym s :: rest =>
                if String.eqb s "(" then
                  match exprD d' fuel paren_rbp rest with
                  | inl (e, TSym c :: rest') => if String.eqb c ")" then inl (Paren e, rest') else inr (DErr PErrSyntax)
                  | inl _ => inr (DErr PErrSyntax)
                  | inr e => inr e
                  end
                else if String.eqb s "-" then
                  match exprD d' fuel neg_rbp rest with inl (e, r) => inl (Un UNeg e, r) | inr e => inr e end
                else if String.eqb s "^" then
                  match exprD d' fuel compl_rbp rest with inl (e, r) => inl (Un UCompl e, r) | inr e => inr e end
                else if String.eqb s "!" then
                  match exprD d' fuel not_rbp rest with inl (e, r) => inl (Un UNot e, r) | inr e => inr e end
                else inr (DErr PErrSyntax)
            end in
          match nud with
          | inr e => inr e
          | inl (lft, rest) => led_loopD d' fuel rbp lft rest
          end
      end
    end
  with led_loopD (d : nat) (fuel : nat) (rbp : Z) (lft : tree) (ts : list tok) {struct fuel} : (tree * list tok) + derr :=
    match fuel with
    | O => if rbp <? cur_lbp lbp ts then inr (DErr PErrFuel) else inl (lft, ts)
    | S fuel =>
        match ts with
        | TSym s :: rest =>
            if rbp <? lbp s then
              if infix s then
                match exprD d fuel (lbp s) rest with
                | inl (rgt, rest') => led_loopD d fuel rbp (Bin s lft rgt) rest'
                | inr e => inr e
                end
              else inr (DErr PErrSyntax)
            else inl (lft, ts)
        | _ => inl (lft, ts)
        end
    end.

  Definition lift (r : (tree * list tok) + perr) : (tree * list tok) + derr :=
    match r with inl x => inl x | inr e => inr (DErr e) end.

  Notation expr := (Pratt.expr lbp infix neg_rbp compl_rbp not_rbp paren_rbp).
  Notation led_loop := (Pratt.led_loop lbp infix neg_rbp compl_rbp not_rbp paren_rbp).
  Notation len := (@List.length tok).

  Lemma depth_enough : forall fuel,
    (forall d rbp ts, (len ts < d)%nat -> exprD d fuel rbp ts = lift (expr fuel rbp ts)) /\
    (forall d rbp lft ts, (len ts <= d)%nat -> led_loopD d fuel rbp lft ts = lift (led_loop fuel rbp lft ts)).
  Proof.
    induction fuel as [|fuel [IHe IHl]].
    - split.
      + intros [|d] rbp ts H; [lia|reflexivity].
      + intros d rbp lft ts H. cbn. destruct (rbp <? cur_lbp lbp ts); reflexivity.
    - split.
      + intros [|d] rbp ts H; [lia|]. rewrite expr_S. cbn [exprD].
        destruct ts as [|[i s|s] r]; cbn [nud]; [reflexivity|apply IHl; cbn in H; lia|].
        cbn in H.
        assert (Hsub : forall rb, exprD d fuel rb r = lift (expr fuel rb r)) by (intros; apply IHe; lia).
        assert (Hsh : forall rb e r', expr fuel rb r = inl (e, r') -> (len r' <= d)%nat).
        { intros rb e r' E. apply expr_consumes in E. lia. }
        destruct (String.eqb s "(").
        { rewrite Hsub. destruct (expr fuel paren_rbp r) as [[e [|[i c|c] r']]|err] eqn:E; cbn [lift]; try reflexivity.
          destruct (String.eqb c ")"); [|reflexivity]. apply IHl. apply Hsh in E. cbn in E. lia. }
        destruct (String.eqb s "-"); [|destruct (String.eqb s "^"); [|destruct (String.eqb s "!"); [|reflexivity]]];
          rewrite Hsub;
          match goal with |- context [expr fuel ?rb r] => destruct (expr fuel rb r) as [[e r']|err] eqn:E end;
          cbn [lift]; try reflexivity; apply IHl; eapply Hsh; exact E.
      + intros d rbp lft ts H. rewrite led_S. cbn [led_loopD].
        destruct ts as [|[i s|s] r]; try reflexivity.
        destruct (rbp <? lbp s); [|reflexivity]. destruct (infix s); [|reflexivity].
        cbn in H. rewrite IHe by lia.
        destruct (expr fuel (lbp s) r) as [[rgt r']|err] eqn:E; cbn [lift]; [|reflexivity].
        apply IHl. apply expr_consumes in E. lia.
  Qed.
End PrattDepth.
