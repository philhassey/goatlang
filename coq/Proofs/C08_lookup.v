(* C08: the "~"-renaming symbol table refines Go's block scoping.

   Main theorem c08_refine: for every well-bracketed sequence of Begin / End / Declare / Resolve on valid
   names (not empty, not starting with "~"), started inside a function body (one open block), the
   implementation model gives exactly the answers of the specification: every declaration gets the slot
   the specification assigns, every name occurrence resolves to the innermost enclosing declaration, and
   to "not a local" (None) when there is none -- at any nesting depth, for any order of declarations.

   The idea: in the flat table the keys k, ~k, ~~k, ... hold the stack of live declarations of k,
   innermost first (stack_of); shadow pushes on that stack, unshadow pops it, and neither touches a key
   outside it. *)
From Coq Require Import ZArith List String Ascii Bool Lia PeanoNat.
From GV Require Import Model.Lookup.
From GV Require Proofs.C10_omap.
Import ListNotations.
Open Scope string_scope.

Fixpoint tildes (i : nat) (k : string) : string :=
  match i with O => k | S i' => tilde (tildes i' k) end.

Lemma tildes_tilde : forall i k, tildes i (tilde k) = tildes (S i) k.
Proof. induction i as [|i IH]; intros k; simpl; [reflexivity | rewrite IH; reflexivity]. Qed.

Lemma tildes_length : forall i k, String.length (tildes i k) = i + String.length k.
Proof. induction i as [|i IH]; intros k; simpl; [reflexivity | rewrite IH; reflexivity]. Qed.

Lemma tildes_neq : forall i j k, i <> j -> tildes i k <> tildes j k.
Proof.
  intros i j k Hij H. apply (f_equal String.length) in H. rewrite !tildes_length in H. lia.
Qed.

Lemma valid_not_tilde : forall x k, valid_name x = true -> x <> tilde k.
Proof. intros x k Hv ->. discriminate Hv. Qed.

Lemma tildes_apart : forall i j x y, valid_name x = true -> valid_name y = true -> x <> y ->
  tildes i x <> tildes j y.
Proof.
  induction i as [|i IH]; intros [|j] x y Hx Hy Hne H; simpl in H.
  - exact (Hne H).
  - exact (valid_not_tilde _ _ Hx H).
  - exact (valid_not_tilde _ _ Hy (eq_sym H)).
  - injection H as H. exact (IH j x y Hx Hy Hne H).
Qed.

(* kget / kdel are OMap.lookup / OMap.remove at String.eqb *)
Lemma kget_kdel_same : forall k m, kget k (kdel k m) = None.
Proof. exact (C10_omap.lookup_remove_same String.eqb). Qed.
Lemma kget_kdel_other : forall k k' m, k <> k' -> kget k (kdel k' m) = kget k m.
Proof. intros k k' m H. exact (C10_omap.lookup_remove_other String.eqb String.eqb_eq k' k m H). Qed.
Lemma kget_kset_same : forall k n m, kget k (kset k n m) = Some n.
Proof. intros. simpl. rewrite String.eqb_refl. reflexivity. Qed.
Lemma kget_kset_other : forall k k' n m, k <> k' -> kget k (kset k' n m) = kget k m.
Proof.
  intros k k' n m H. simpl. rewrite (proj2 (String.eqb_neq k k') H). apply kget_kdel_other, H.
Qed.

Lemma kdel_length : forall k m,
  List.length (kdel k m) <= List.length m /\ (kget k m <> None -> List.length (kdel k m) < List.length m).
Proof.
  intros k m. induction m as [|[k0 n0] r [IH1 IH2]]; simpl; [split; [lia | congruence]|].
  destruct (String.eqb k k0); simpl; split; intros; try apply IH2 in H; lia.
Qed.

Lemma kget_In : forall k n m, kget k m = Some n -> In (k, n) m.
Proof.
  intros k n m. induction m as [|[k0 n0] r IH]; simpl; intros H; [discriminate|].
  destruct (String.eqb_spec k k0) as [<-|_]; [left; congruence | right; auto].
Qed.

(* c is the length of the shadow chain of k in m: k, ~k, .. are keys up to c tildes exclusive *)
Definition chain (m : list (string * nat)) (k : string) (c : nat) : Prop :=
  (forall i, i < c -> kget (tildes i k) m <> None) /\ kget (tildes c k) m = None.

Lemma chain_bound : forall c m k, (forall i, i < c -> kget (tildes i k) m <> None) -> c <= List.length m.
Proof.
  induction c as [|c IH]; intros m k H; [lia|].
  assert (Hc : c <= List.length (kdel (tildes c k) m)).
  { apply (IH _ k). intros i Hi. rewrite kget_kdel_other by (apply tildes_neq; lia). apply H. lia. }
  assert (Hl := proj2 (kdel_length (tildes c k) m) (H c (Nat.lt_succ_diag_r c))). lia.
Qed.

Lemma chain_exists : forall m k, exists c, chain m k c.
Proof.
  intros m k.
  assert (H : forall n, (exists c, chain m k c) \/ (forall i, i < n -> kget (tildes i k) m <> None)).
  { induction n as [|n IH].
    - right. intros i Hi. lia.
    - destruct IH as [IH|IH]; [left; exact IH|].
      destruct (kget (tildes n k) m) eqn:E.
      + right. intros i Hi. destruct (Nat.eq_dec i n) as [->|Hn]; [congruence|]. apply IH. lia.
      + left. exists n. split; assumption. }
  destruct (H (S (List.length m))) as [Hc|Hc]; [exact Hc|].
  apply chain_bound in Hc. lia.
Qed.

Lemma chain_tilde : forall m k c, chain m k (S c) -> chain m (tilde k) c.
Proof.
  intros m k c [H1 H2]. split; [intros i Hi|]; rewrite tildes_tilde; [apply H1; lia | exact H2].
Qed.

Lemma shadow_S : forall f m k, shadow (S f) m k =
  match kget k m with Some n => kdel k (kset (tilde k) n (shadow f m (tilde k))) | None => m end.
Proof. reflexivity. Qed.
Lemma unshadow_S : forall f m k, unshadow (S f) m k =
  match kget (tilde k) m with Some n => unshadow f (kdel (tilde k) (kset k n m)) (tilde k) | None => m end.
Proof. reflexivity. Qed.
Lemma shadow_none : forall f m k, kget k m = None -> shadow f m k = m.
Proof. intros f m k H. destruct f; [reflexivity|]. rewrite shadow_S, H. reflexivity. Qed.
Lemma unshadow_none : forall f m k, kget (tilde k) m = None -> unshadow f m k = m.
Proof. intros f m k H. destruct f; [reflexivity|]. rewrite unshadow_S, H. reflexivity. Qed.

Lemma shadow_fuel : forall c f1 f2 m k, chain m k c -> c <= f1 -> c <= f2 -> shadow f1 m k = shadow f2 m k.
Proof.
  induction c as [|c IH]; intros f1 f2 m k Hch H1 H2.
  - rewrite !shadow_none by exact (proj2 Hch). reflexivity.
  - destruct f1 as [|f1]; [lia|]. destruct f2 as [|f2]; [lia|]. rewrite !shadow_S.
    destruct (kget k m) eqn:E; [|reflexivity].
    rewrite (IH f1 f2 m (tilde k)); [reflexivity| apply chain_tilde; exact Hch | lia | lia].
Qed.

(* one step of unshadow k rebinds k and unbinds ~k; the rest of the chain, from ~~k on, is as before *)
Lemma unshadow_step_get : forall m k n k', k' <> k -> k' <> tilde k ->
  kget k' (kdel (tilde k) (kset k n m)) = kget k' m.
Proof. intros m k n k' H0 H1. rewrite kget_kdel_other, kget_kset_other by assumption. reflexivity. Qed.

Lemma unshadow_step_chain : forall m k n i,
  kget (tildes i (tilde (tilde k))) (kdel (tilde k) (kset k n m)) = kget (tildes (S i) (tilde k)) m.
Proof.
  intros m k n i. rewrite !tildes_tilde.
  apply unshadow_step_get; [apply (tildes_neq _ 0) | apply (tildes_neq _ 1)]; lia.
Qed.

Lemma unshadow_fuel : forall c f1 f2 m k, chain m (tilde k) c -> c <= f1 -> c <= f2 ->
  unshadow f1 m k = unshadow f2 m k.
Proof.
  induction c as [|c IH]; intros f1 f2 m k Hch H1 H2.
  - rewrite !unshadow_none by exact (proj2 Hch). reflexivity.
  - destruct f1 as [|f1]; [lia|]. destruct f2 as [|f2]; [lia|]. rewrite !unshadow_S.
    destruct (kget (tilde k) m) as [n|] eqn:E; [|reflexivity].
    apply IH; [|lia|lia]. destruct Hch as [C1 C2].
    split; [intros i Hi|]; rewrite unshadow_step_chain; [apply C1; lia | exact C2].
Qed.

(* the keys k, ~k, ~~k, ... of m hold exactly the stack L, top first *)
Definition stack_of (m : list (string * nat)) (k : string) (L : list nat) : Prop :=
  forall i, kget (tildes i k) m = nth_error L i.

Lemma stack_step : forall m k L,
  stack_of m k L <-> kget k m = nth_error L 0 /\ stack_of m (tilde k) (tl L).
Proof.
  intros m k L. split.
  - intros H. split; [exact (H 0)|]. intros i. rewrite tildes_tilde, H. destruct L; [destruct i|]; reflexivity.
  - intros [H0 H] [|i]; [exact H0|]. rewrite <- tildes_tilde, H. destruct L; [destruct i|]; reflexivity.
Qed.

Lemma stack_chain : forall m k L, stack_of m k L -> chain m k (List.length L).
Proof.
  intros m k L H. split; [intros i Hi|]; rewrite H; [apply nth_error_Some; exact Hi | apply nth_error_None; lia].
Qed.

Lemma stack_fuel : forall m k L, stack_of m k L -> List.length L < chain_fuel m.
Proof. intros m k L H. apply Nat.lt_succ_r, (chain_bound _ _ k), stack_chain, H. Qed.

Lemma shadow_stack : forall L f m k, stack_of m k L -> List.length L <= f ->
  stack_of (shadow f m k) (tilde k) L /\
  kget k (shadow f m k) = None /\
  (forall k', (forall i, k' <> tildes i k) -> kget k' (shadow f m k) = kget k' m).
Proof.
  induction L as [|n L IH]; intros f m k H Hf; apply stack_step in H as [H0 H]; cbn [nth_error tl] in H0, H.
  - rewrite shadow_none by exact H0. split; [exact H|]. split; [exact H0 | reflexivity].
  - destruct f as [|f]; [simpl in Hf; lia|]. rewrite shadow_S, H0.
    destruct (IH f m (tilde k) H) as (Ha & Hb & Hc); [simpl in Hf; lia|].
    split; [|split].
    + intros i. rewrite tildes_tilde, kget_kdel_other by (apply (tildes_neq _ 0); lia).
      destruct i as [|i]; [apply kget_kset_same|].
      rewrite kget_kset_other by (apply (tildes_neq _ 1); lia). rewrite <- !tildes_tilde. exact (Ha i).
    + apply kget_kdel_same.
    + intros k' Hk'. rewrite kget_kdel_other by exact (Hk' 0). rewrite kget_kset_other by exact (Hk' 1).
      apply Hc. intros i. rewrite tildes_tilde. apply Hk'.
Qed.

Lemma unshadow_stack : forall L f m k, stack_of m (tilde k) L -> kget k m = None -> List.length L <= f ->
  stack_of (unshadow f m k) k L /\
  (forall k', (forall i, k' <> tildes i k) -> kget k' (unshadow f m k) = kget k' m).
Proof.
  induction L as [|n L IH]; intros f m k H Hk Hf.
  - rewrite unshadow_none by exact (H 0). split; [|reflexivity]. apply stack_step. split; assumption.
  - destruct f as [|f]; [simpl in Hf; lia|]. rewrite unshadow_S, (H 0 : kget (tilde k) m = Some n).
    destruct (IH f (kdel (tilde k) (kset k n m)) (tilde k)) as [Ha Hc].
    + intros i. rewrite unshadow_step_chain. exact (H (S i)).
    + apply kget_kdel_same.
    + simpl in Hf; lia.
    + split.
      * apply stack_step. split; [|exact Ha].
        rewrite Hc by (intros i; rewrite tildes_tilde; apply (tildes_neq 0); lia).
        rewrite kget_kdel_other by (apply (tildes_neq 0 1); lia). apply kget_kset_same.
      * intros k' Hk'. rewrite Hc by (intros i; rewrite tildes_tilde; apply Hk').
        apply unshadow_step_get; [exact (Hk' 0) | exact (Hk' 1)].
Qed.

Definition block := list (string * nat).

(* the slots of the live declarations of x in the open blocks bs, innermost first *)
Fixpoint ids (x : string) (bs : list block) : list nat :=
  match bs with
  | [] => []
  | b :: r => match kget x b with Some n => n :: ids x r | None => ids x r end
  end.

Lemma ids_cons_same : forall k n b rest, ids k (((k, n) :: b) :: rest) = n :: ids k rest.
Proof. intros. simpl. rewrite String.eqb_refl. reflexivity. Qed.
Lemma ids_cons_other : forall y k n b rest, y <> k -> ids y (((k, n) :: b) :: rest) = ids y (b :: rest).
Proof. intros y k n b rest H. simpl. apply String.eqb_neq in H. rewrite H. reflexivity. Qed.
Lemma ids_cons_none : forall x b rest, kget x b = None -> ids x (b :: rest) = ids x rest.
Proof. intros x b rest H. simpl. rewrite H. reflexivity. Qed.
Lemma ids_cons_some : forall x b rest n, kget x b = Some n -> ids x (b :: rest) = n :: ids x rest.
Proof. intros x b rest n H. simpl. rewrite H. reflexivity. Qed.

Lemma s_find_ids : forall x bs, s_find x bs = nth_error (ids x bs) 0.
Proof.
  intros x bs. induction bs as [|b r IH]; simpl; [reflexivity|].
  destruct (kget x b); simpl; [reflexivity | exact IH].
Qed.

(* a block lists its declarations latest first: slots strictly decreasing from the head, inside [a, hi);
   names valid and pairwise distinct *)
Fixpoint block_ok (a hi : nat) (b : block) : Prop :=
  match b with
  | [] => True
  | (x, n) :: b' => a <= n /\ n < hi /\ valid_name x = true /\ kget x b' = None /\ block_ok a n b'
  end.

(* sc holds the first slot of each open block, innermost first: a block's slots end where the next inner one's
   begin, the innermost at hi *)
Fixpoint blocks_ok (sc : list nat) (bs : list block) (hi : nat) : Prop :=
  match sc, bs with
  | [], [] => True
  | a :: sc', b :: bs' => a <= hi /\ block_ok a hi b /\ blocks_ok sc' bs' a
  | _, _ => False
  end.

Definition bound_in (x : string) (n : nat) (bs : list block) : Prop :=
  exists b, In b bs /\ In (x, n) b.

Lemma bound_in_cons : forall x n b bs, bound_in x n (b :: bs) <-> In (x, n) b \/ bound_in x n bs.
Proof. intros x n b bs. unfold bound_in, block. rewrite <- !in_concat. apply in_app_iff. Qed.

Lemma bound_in_nil : forall x n, ~ bound_in x n [].
Proof. intros x n (b0 & [] & _). Qed.

Lemma bound_in_push : forall x n y v b bs,
  bound_in x n (((y, v) :: b) :: bs) <-> (y, v) = (x, n) \/ bound_in x n (b :: bs).
Proof. intros. rewrite !bound_in_cons. simpl. tauto. Qed.

Lemma ids_bound_in : forall x n bs, In n (ids x bs) -> bound_in x n bs.
Proof.
  intros x n bs. induction bs as [|b r IH]; simpl; [intros []|]. rewrite bound_in_cons.
  destruct (kget x b) as [nb|] eqn:E; [intros [<-|H]|]; [left; apply kget_In, E | right; auto | right; auto].
Qed.

Lemma block_ok_weaken : forall a hi hi' b, block_ok a hi b -> hi <= hi' -> block_ok a hi' b.
Proof.
  intros a hi hi' [|[x n] b'] H Hle; [exact I|].
  destruct H as (H1 & H2 & H3). split; [exact H1|]. split; [lia | exact H3].
Qed.

Lemma block_ok_S : forall a hi b, block_ok a (S hi) b -> (exists x b', b = (x, hi) :: b') \/ block_ok a hi b.
Proof.
  intros a hi [|[x n] b']; [right; exact I|]. intros (H1 & H2 & H3).
  destruct (Nat.eq_dec n hi) as [->|Hn]; [left; eauto | right]. split; [exact H1|]. split; [lia | exact H3].
Qed.

Lemma block_ok_In : forall b a hi x n, block_ok a hi b -> In (x, n) b -> a <= n /\ n < hi /\ valid_name x = true.
Proof.
  induction b as [|[y m] b' IH]; intros a hi x n H Hin; simpl in *; [contradiction|].
  destruct H as (H1 & H2 & H3 & H4 & H5). destruct Hin as [He|Hin].
  - inversion He; subst. repeat split; assumption.
  - destruct (IH a m x n H5 Hin) as (I1 & I2 & I3). repeat split; try assumption; lia.
Qed.

Lemma blocks_ok_weaken : forall sc bs hi hi', blocks_ok sc bs hi -> hi <= hi' -> blocks_ok sc bs hi'.
Proof.
  intros [|a sc'] [|b bs'] hi hi' H Hle; simpl in *; try assumption.
  destruct H as (H1 & H2 & H3). repeat split; [lia | eapply block_ok_weaken; eassumption | assumption].
Qed.

Lemma blocks_ok_bound : forall sc bs hi x n, blocks_ok sc bs hi -> bound_in x n bs -> n < hi.
Proof.
  induction sc as [|a sc' IH]; intros [|b bs'] hi x n H Hb; simpl in H;
    try (exfalso; exact H); try (exfalso; exact (bound_in_nil _ _ Hb)).
  destruct H as (H1 & H2 & H3). apply bound_in_cons in Hb. destruct Hb as [Hb|Hb].
  - apply (block_ok_In _ _ _ _ _ H2 Hb).
  - specialize (IH _ _ _ _ H3 Hb). lia.
Qed.

(* the simulation invariant: the keys of every valid name x hold the stack ids x bs (stack_of, written out),
   i2k names exactly the bound slots, and (R) the next fresh slot is the length of the table *)
Definition Rcore (l : lookup) (bs : list block) : Prop :=
  (forall x, valid_name x = true -> forall i, kget (tildes i x) (k2i l) = nth_error (ids x bs) i) /\
  (forall x n, bound_in x n bs -> nth n (i2k l) "" = x) /\
  (forall n, (forall x, ~ bound_in x n bs) -> nth n (i2k l) "" = "").

Definition R (c : cscope) (e : senv) : Prop :=
  fresh e = llen (locals c) /\
  Rcore (locals c) (blocks e) /\
  blocks_ok (scope c) (blocks e) (fresh e).

Lemma R_init : R new_scope s_new.
Proof.
  unfold R, Rcore; simpl. repeat split.
  - intros x Hx i. destruct i; reflexivity.
  - intros x n Hb. exfalso. exact (bound_in_nil _ _ Hb).
  - intros n _. destruct n; reflexivity.
Qed.

Lemma Rcore_push_nil : forall l bs, Rcore l bs <-> Rcore l ([] :: bs).
Proof.
  intros l bs.
  assert (E : forall x n, bound_in x n ([] :: bs) <-> bound_in x n bs) by (intros; rewrite bound_in_cons; simpl; tauto).
  unfold Rcore. cbn [ids kget]. setoid_rewrite E. reflexivity.
Qed.

Lemma begin_sim : forall c e, R c e -> R (c_begin c) (s_begin e).
Proof.
  intros [l sc] [bs fr] (Hf & Hc & Hb). unfold R, c_begin, s_begin in *; simpl in *.
  split; [exact Hf|]. split; [apply (proj1 (Rcore_push_nil _ _)); exact Hc|].
  rewrite <- Hf. split; [lia|]. split; [exact I | exact Hb].
Qed.

Lemma resolve_sim : forall c e k, R c e -> valid_name k = true -> c_resolve c k = s_resolve e k.
Proof.
  intros [l sc] [bs fr] k (Hf & (H1 & _) & Hb) Hk. unfold c_resolve, s_resolve; simpl in *.
  rewrite s_find_ids. apply (H1 k Hk 0).
Qed.

(* the table changes on the chain of x only, the blocks in the declarations of x only *)
Lemma stacks_update : forall m m' bs bs' x, valid_name x = true ->
  (forall y, valid_name y = true -> stack_of m y (ids y bs)) ->
  stack_of m' x (ids x bs') ->
  (forall k', (forall i, k' <> tildes i x) -> kget k' m' = kget k' m) ->
  (forall y, y <> x -> ids y bs' = ids y bs) ->
  forall y, valid_name y = true -> stack_of m' y (ids y bs').
Proof.
  intros m m' bs bs' x Hx H1 Hst Hfr Hids y Hy. destruct (String.eqb_spec y x) as [->|Hne]; [exact Hst|].
  rewrite (Hids y Hne). intros i. rewrite Hfr; [apply H1, Hy|]. intros j. apply tildes_apart; assumption.
Qed.

(* a fresh declaration of k in a table m1 that holds k's outer declarations under ~k and agrees with
   the old table off the chain of k *)
Lemma declare_new_R : forall l top sc b rest fr k m1 cap',
  fr = llen l ->
  Rcore l (b :: rest) ->
  blocks_ok (top :: sc) (b :: rest) fr ->
  valid_name k = true ->
  kget k b = None ->
  stack_of m1 (tilde k) (ids k rest) ->
  (forall k', (forall i, k' <> tildes i k) -> kget k' m1 = kget k' (k2i l)) ->
  R (mkScope (mkLookup (kset k (llen l) m1) (i2k l ++ [k]) cap') (top :: sc))
    (mkSenv (((k, fr) :: b) :: rest) (S fr)).
Proof.
  intros l top sc b rest fr k m1 cap' -> (H1 & H2 & H3) Hb Hk Hkb Hsh Hoth.
  assert (Hlt : forall x n, bound_in x n (b :: rest) -> n < List.length (i2k l))
    by (intros x n; apply (blocks_ok_bound _ _ _ _ _ Hb)).
  unfold R; cbn [locals scope blocks fresh]. split; [|split].
  - unfold llen; cbn [i2k]. rewrite app_length, Nat.add_1_r. reflexivity.
  - unfold Rcore; cbn [k2i i2k]. split; [|split].
    + apply (stacks_update (k2i l) _ (b :: rest) _ k Hk H1).
      * rewrite ids_cons_same. apply stack_step. split; [apply kget_kset_same|].
        intros i. rewrite kget_kset_other; [apply Hsh|]. rewrite tildes_tilde. apply (tildes_neq _ 0). lia.
      * intros k' Hk'. rewrite kget_kset_other by exact (Hk' 0). apply Hoth, Hk'.
      * intros y Hne. apply ids_cons_other, Hne.
    + intros x n Hbi. apply bound_in_push in Hbi as [He|Hbi].
      * inversion He; subst. apply nth_middle.
      * rewrite app_nth1 by exact (Hlt _ _ Hbi). apply H2, Hbi.
    + intros n Hn. destruct (Nat.lt_ge_cases n (llen l)) as [Hl|Hl].
      * rewrite app_nth1 by exact Hl. apply H3. intros x Hbi. apply (Hn x), bound_in_push. right. exact Hbi.
      * apply nth_overflow. rewrite app_length, Nat.add_1_r. apply Nat.le_neq. split; [exact Hl|].
        intros <-. apply (Hn k), bound_in_push. left. reflexivity.
  - destruct Hb as (Hb1 & Hb2 & Hb3). split; [lia|]. split; [|exact Hb3].
    repeat split; try assumption; lia.
Qed.

Lemma declare_sim : forall c e k, R c e -> valid_name k = true -> 0 < List.length (blocks e) ->
  snd (c_declare c k) = snd (s_declare e k) /\ R (fst (c_declare c k)) (fst (s_declare e k)).
Proof.
  intros [l sc] [[|b rest] fr] k HR Hk Hd; [simpl in Hd; lia|].
  destruct sc as [|top sc]; [destruct HR as (_ & _ & [])|].
  pose proof HR as (Hf & Hc & Hb). pose proof Hc as (H1 & _). pose proof Hb as (_ & Hb2 & Hb3).
  cbn [locals scope blocks fresh] in Hf, Hc, Hb, H1.
  pose proof (H1 k Hk) as Hst. fold (stack_of (k2i l) k (ids k (b :: rest))) in Hst.
  pose proof (Hst 0 : kget k (k2i l) = _) as H0.
  unfold c_declare, s_declare. cbn [locals scope blocks fresh hd].
  destruct (kget k b) as [nb|] eqn:Ekb.
  - (* already declared in the innermost block: same slot *)
    rewrite (ids_cons_some _ _ _ _ Ekb) in H0. cbn [nth_error] in H0. rewrite H0.
    rewrite (proj2 (Nat.ltb_ge nb top)) by (apply (block_ok_In _ _ _ k nb Hb2), kget_In, Ekb).
    unfold index. rewrite H0. split; [reflexivity | exact HR].
  - (* otherwise Declare is Shadow: a binding of k belongs to an outer block, so its slot is below
       scope[top]; and without one, shadow renames nothing *)
    rewrite (ids_cons_none _ _ _ Ekb) in Hst, H0.
    assert (E : match kget k (k2i l) with
                | Some n => if Nat.ltb n top then lshadow l k else index l k
                | None => index l k
                end = lshadow l k).
    { destruct (kget k (k2i l)) as [n|] eqn:Ekl.
      - rewrite (proj2 (Nat.ltb_lt n top)); [reflexivity|].
        apply (blocks_ok_bound _ _ _ k n Hb3), ids_bound_in, nth_error_In with 0. symmetry. exact H0.
      - unfold lshadow. rewrite shadow_none by exact Ekl. destruct l; reflexivity. }
    rewrite E. unfold lshadow, index. cbn [k2i i2k lcap].
    destruct (shadow_stack _ (chain_fuel (k2i l)) _ _ Hst) as (Sa & Sb & Sc);
      [apply Nat.lt_le_incl, (stack_fuel _ _ _ Hst)|].
    rewrite Sb. split; [symmetry; exact Hf|].
    exact (declare_new_R l top sc b rest fr k _ _ Hf Hc Hb Hk Ekb Sa Sc).
Qed.

Lemma set_nth_length : forall l n v, List.length (set_nth l n v) = List.length l.
Proof.
  induction l as [|a l IH]; intros n v; simpl; [reflexivity|].
  destruct n; simpl; [reflexivity | rewrite IH; reflexivity].
Qed.
Lemma nth_set_nth_same : forall l n v, nth n (set_nth l n v) v = v.
Proof.
  induction l as [|a l IH]; intros n v; simpl.
  - destruct n; reflexivity.
  - destruct n; simpl; [reflexivity | apply IH].
Qed.
Lemma nth_set_nth_other : forall l n k v d, k <> n -> nth k (set_nth l n v) d = nth k l d.
Proof.
  induction l as [|a l IH]; intros n k v d H; simpl; [reflexivity|].
  destruct n as [|n]; destruct k as [|k]; simpl; try reflexivity; try lia.
  apply IH. lia.
Qed.

(* one round of Drop's loop, at slot n *)
Definition drop_step (n : nat) (l : lookup) : lookup :=
  let key := nth n (i2k l) "" in
  if String.eqb key "" then l
  else mkLookup (unshadow (chain_fuel (kdel key (k2i l))) (kdel key (k2i l)) key) (set_nth (i2k l) n "") (lcap l).

Lemma drop_loop_S : forall t i l, drop_loop (S t) i l = drop_loop t (S i) (drop_step (llen l - i) l).
Proof. reflexivity. Qed.

Lemma drop_step_skip : forall n l, nth n (i2k l) "" = "" -> drop_step n l = l.
Proof. intros n l H. unfold drop_step. rewrite H. reflexivity. Qed.

Lemma drop_step_llen : forall n l, llen (drop_step n l) = llen l.
Proof.
  intros n l. unfold drop_step. destruct (String.eqb _ ""); [reflexivity | apply set_nth_length].
Qed.

(* at the slot of the newest binding (x, n) of the innermost block: x's stack is popped *)
Lemma drop_step_live : forall l x n b' rest top sc,
  Rcore l (((x, n) :: b') :: rest) ->
  block_ok top (S n) ((x, n) :: b') ->
  blocks_ok sc rest top ->
  Rcore (drop_step n l) (b' :: rest).
Proof.
  intros l x n b' rest top sc (H1 & H2 & H3) (Hge & _ & Hx & Hxb & Hb') Hrest.
  unfold drop_step. rewrite (H2 x n) by (apply bound_in_push; left; reflexivity).
  destruct (String.eqb_spec x "") as [->|_]; [discriminate Hx|].
  set (m1 := kdel x (k2i l)).
  assert (Hst : stack_of m1 (tilde x) (ids x rest)).
  { intros i. rewrite tildes_tilde. unfold m1. rewrite kget_kdel_other by (apply (tildes_neq _ 0); lia).
    rewrite (H1 x Hx (S i)), ids_cons_same. reflexivity. }
  destruct (unshadow_stack _ (chain_fuel m1) _ _ Hst (kget_kdel_same _ _)) as [Ua Uc];
    [apply Nat.lt_le_incl, (stack_fuel _ _ _ Hst)|].
  unfold Rcore; cbn [k2i i2k]. split; [|split].
  - apply (stacks_update (k2i l) _ (((x, n) :: b') :: rest) _ x Hx H1).
    + rewrite (ids_cons_none _ _ _ Hxb). exact Ua.
    + intros k' Hk'. rewrite (Uc k' Hk'). apply kget_kdel_other, (Hk' 0).
    + intros y Hne. symmetry. apply ids_cons_other, Hne.
  - intros y k Hbi. rewrite nth_set_nth_other; [apply H2, bound_in_push; right; exact Hbi|].
    apply Nat.lt_neq, (blocks_ok_bound (top :: sc) (b' :: rest) n y); [|exact Hbi]. split; [exact Hge | split; assumption].
  - intros k Hk. destruct (Nat.eq_dec k n) as [->|Hkn]; [apply nth_set_nth_same|].
    rewrite nth_set_nth_other by exact Hkn. apply H3. intros y Hbi.
    apply bound_in_push in Hbi as [He|Hbi]; [congruence | exact (Hk y Hbi)].
Qed.

(* t slots of the innermost block, [top, t + top), are still to be visited, from the highest down; i is the
   loop index of Lookup.drop (end_sim starts with t := llen l - top, i := 1) *)
Lemma drop_loop_inv : forall top sc rest t i l b,
  Rcore l (b :: rest) -> block_ok top (t + top) b -> blocks_ok sc rest top ->
  llen l + 1 = t + top + i ->
  Rcore (drop_loop t i l) ([] :: rest) /\ llen (drop_loop t i l) = llen l.
Proof.
  intros top sc rest. induction t as [|t IH]; intros i l b Hc Hbo Hrest Hlen.
  - destruct b as [|[x m] b']; [split; [exact Hc | reflexivity]|]. destruct Hbo as (? & ? & _). lia.
  - rewrite drop_loop_S. replace (llen l - i) with (t + top) by lia.
    assert (exists b0, Rcore (drop_step (t + top) l) (b0 :: rest) /\ block_ok top (t + top) b0) as (b0 & Hc0 & Hbo0).
    { destruct (block_ok_S _ _ _ Hbo) as [(x & b' & ->)|Hbo'].
      - exists b'. split; [exact (drop_step_live _ _ _ _ _ _ _ Hc Hbo Hrest) | apply Hbo].
      - (* no binding has this slot: it is empty *)
        exists b. rewrite drop_step_skip; [split; assumption|]. apply Hc. intros y Hbi.
        apply (Nat.lt_irrefl (t + top)), (blocks_ok_bound (top :: sc) (b :: rest) _ y); [|exact Hbi].
        split; [lia | split; assumption]. }
    destruct (IH (S i) _ b0 Hc0 Hbo0 Hrest) as [I1 I2]; [rewrite drop_step_llen; lia|].
    split; [exact I1 | rewrite I2; apply drop_step_llen].
Qed.

Lemma end_sim : forall c e, R c e -> 0 < List.length (blocks e) -> R (c_end c) (s_end e).
Proof.
  intros [l sc] [[|b rest] fr] HR Hd; [simpl in Hd; lia|].
  destruct sc as [|top sc]; [destruct HR as (_ & _ & [])|].
  destruct HR as (Hf & Hc & Hb1 & Hb2 & Hb3). cbn [locals scope blocks fresh] in Hf, Hc, Hb1, Hb2.
  unfold c_end, s_end, drop. cbn [locals scope blocks fresh hd tl].
  destruct (drop_loop_inv top sc rest (llen l - top) 1 l b Hc) as [D1 D2].
  - replace (llen l - top + top) with fr by lia. exact Hb2.
  - exact Hb3.
  - lia.
  - unfold R. cbn [locals scope blocks fresh]. split; [|split].
    + rewrite D2. exact Hf.
    + apply (proj2 (Rcore_push_nil _ _)). exact D1.
    + apply (blocks_ok_weaken _ _ top); [exact Hb3 | exact Hb1].
Qed.

Fixpoint c_exec (c : cscope) (os : list sop) : cscope :=
  match os with [] => c | o :: r => c_exec (fst (c_step c o)) r end.
Fixpoint s_exec (e : senv) (os : list sop) : senv :=
  match os with [] => e | o :: r => s_exec (fst (s_step e o)) r end.

Lemma c_run_cons : forall c o os, c_run c (o :: os) = snd (c_step c o) :: c_run (fst (c_step c o)) os.
Proof. intros c o os. simpl. destruct (c_step c o); reflexivity. Qed.
Lemma s_run_cons : forall e o os, s_run e (o :: os) = snd (s_step e o) :: s_run (fst (s_step e o)) os.
Proof. intros e o os. simpl. destruct (s_step e o); reflexivity. Qed.

Lemma s_declare_depth : forall e k, List.length (blocks (fst (s_declare e k))) = List.length (blocks e).
Proof.
  intros [bs fr] k. unfold s_declare. cbn [blocks fresh]. destruct bs as [|b rest]; [reflexivity|].
  destruct (kget k b); reflexivity.
Qed.

Lemma step_sim : forall c e o os, R c e -> well_formed (List.length (blocks e)) (o :: os) = true ->
  snd (c_step c o) = snd (s_step e o) /\
  R (fst (c_step c o)) (fst (s_step e o)) /\
  well_formed (List.length (blocks (fst (s_step e o)))) os = true.
Proof.
  intros c e o os HR Hwf. destruct o as [| |k|k|k]; cbn [well_formed] in Hwf.
  - cbn [c_step s_step fst snd]. split; [reflexivity|]. split; [apply begin_sim; exact HR | exact Hwf].
  - destruct e as [[|b rest] fr]; [discriminate Hwf|].
    split; [reflexivity|]. split; [apply end_sim; [exact HR | apply Nat.lt_0_succ] | exact Hwf].
  - apply andb_prop in Hwf as [Hwf Hwf3]. apply andb_prop in Hwf as [Hk Hd]. apply Nat.ltb_lt in Hd.
    destruct (declare_sim c e k HR Hk Hd) as [Hans HR']. rewrite <- (s_declare_depth e k) in Hwf3.
    cbn [c_step s_step]. destruct (c_declare c k) as [c' n], (s_declare e k) as [e' n'].
    cbn [fst snd] in *. subst n'. split; [reflexivity|]. split; assumption.
  - apply andb_prop in Hwf as [Hk Hwf].
    cbn [c_step s_step fst snd]. rewrite (resolve_sim c e k HR Hk).
    split; [reflexivity|]. split; assumption.
  - discriminate.
Qed.

Theorem c08_sim : forall os c e, R c e -> well_formed (List.length (blocks e)) os = true ->
  c_run c os = s_run e os /\ R (c_exec c os) (s_exec e os).
Proof.
  induction os as [|o os IH]; intros c e HR Hwf.
  - split; [reflexivity | exact HR].
  - destruct (step_sim c e o os HR Hwf) as (Hans & HR' & Hwf').
    destruct (IH _ _ HR' Hwf') as [I1 I2].
    split; [|exact I2]. rewrite c_run_cons, s_run_cons, Hans, I1. reflexivity.
Qed.

Lemma R_start : R (c_begin new_scope) (s_begin s_new).
Proof. apply begin_sim. exact R_init. Qed.

Theorem c08_refine : forall os, well_formed 1 os = true ->
  c_run (c_begin new_scope) os = s_run (s_begin s_new) os.
Proof.
  intros os Hwf. exact (proj1 (c08_sim os _ _ R_start Hwf)).
Qed.

(* every reachable implementation state is related to the specification state reached by the same operations *)
Theorem c08_reachable_R : forall os, well_formed 1 os = true ->
  R (c_exec (c_begin new_scope) os) (s_exec (s_begin s_new) os).
Proof.
  intros os Hwf. exact (proj2 (c08_sim os _ _ R_start Hwf)).
Qed.

(* The chain k, ~k, ~~k, ... of bound keys consists of pairwise distinct keys of m, hence is no longer than
   m: any fuel >= the chain length gives the same result.  This holds for every table and key, in
   particular for the intermediate tables inside Drop (after delete(m, key)). *)
Theorem shadow_budget_any : forall m k f, chain_fuel m <= f -> shadow f m k = shadow (chain_fuel m) m k.
Proof.
  intros m k f Hf. destruct (chain_exists m k) as [c Hch].
  assert (Hc := chain_bound c m k (proj1 Hch)). unfold chain_fuel in *.
  apply (shadow_fuel c); [exact Hch | lia | lia].
Qed.

Theorem unshadow_budget_any : forall m k f, chain_fuel m <= f -> unshadow f m k = unshadow (chain_fuel m) m k.
Proof.
  intros m k f Hf. destruct (chain_exists m (tilde k)) as [c Hch].
  assert (Hc := chain_bound c m (tilde k) (proj1 Hch)). unfold chain_fuel in *.
  apply (unshadow_fuel c); [exact Hch | lia | lia].
Qed.

Definition reachable (c : cscope) : Prop :=
  exists os, well_formed 1 os = true /\ c = c_exec (c_begin new_scope) os.

Theorem c08_budget : forall c, reachable c ->
  forall k f, chain_fuel (k2i (locals c)) <= f ->
    shadow f (k2i (locals c)) k = shadow (chain_fuel (k2i (locals c))) (k2i (locals c)) k /\
    unshadow f (k2i (locals c)) k = unshadow (chain_fuel (k2i (locals c))) (k2i (locals c)) k /\
    (* and for the table on which Drop calls unshadow, i.e. after delete(m, key) *)
    (forall key f', chain_fuel (kdel key (k2i (locals c))) <= f' ->
       unshadow f' (kdel key (k2i (locals c))) key =
       unshadow (chain_fuel (kdel key (k2i (locals c)))) (kdel key (k2i (locals c))) key).
Proof.
  intros c _ k f Hf. split; [apply shadow_budget_any; exact Hf|].
  split; [apply unshadow_budget_any; exact Hf|].
  intros key f' Hf'. apply unshadow_budget_any; exact Hf'.
Qed.

(* sharper, invariant-based form: on a reachable table the renaming chain of a valid name x is exactly
   as long as the number of live declarations of x, and the recursion stops on a missing key (not on
   fuel exhaustion) after that many steps *)
Theorem c08_budget_chain : forall c e x, R c e -> valid_name x = true ->
  chain (k2i (locals c)) x (List.length (ids x (blocks e))) /\
  List.length (ids x (blocks e)) < chain_fuel (k2i (locals c)).
Proof.
  intros c e x (_ & (H1 & _) & _) Hx. split; [apply stack_chain | apply (stack_fuel _ x)]; exact (H1 x Hx).
Qed.
