(* Cyclic index arithmetic for the robin-hood table; next n i is cyc_at n i 1. *)
From Coq Require Import ZArith List Bool Lia PeanoNat.
From GV Require Import Model.IntMap.

(* cyclic distance from a forward to b *)
Definition cyc_dist (n a b : nat) : nat := (b + n - a) mod n.
Definition cyc_at (n h j : nat) : nat := (h + j) mod n.

Lemma home_lt : forall n k, 0 < n -> home n k < n.
Proof.
  intros n k Hn. unfold home.
  assert (H : (0 <= k mod Z.of_nat n < Z.of_nat n)%Z) by (apply Z.mod_pos_bound; lia).
  lia.
Qed.

Lemma mod_lt2 : forall n x, n <= x -> x < 2 * n -> x mod n = x - n.
Proof.
  intros n x H1 H2. symmetry. apply Nat.mod_unique with (q := 1); lia.
Qed.

(* Below n both functions are a comparison and a subtraction; the lemmas after these two
   are linear arithmetic over the cases (posed as disjunctions for lia to split: destructing
   them first runs lia once per combination). *)
Lemma cd_cases : forall n a b, a < n -> b < n ->
  (a <= b /\ cyc_dist n a b + a = b) \/ (b < a /\ cyc_dist n a b + a = b + n).
Proof.
  intros n a b Ha Hb. unfold cyc_dist. destruct (le_lt_dec a b) as [L|L]; [left|right]; split; try exact L.
  - rewrite mod_lt2; lia.
  - rewrite Nat.mod_small; lia.
Qed.

Lemma at_cases : forall n h j, h < n -> j <= n ->
  (h + j < n /\ cyc_at n h j = h + j) \/ (n <= h + j /\ cyc_at n h j + n = h + j).
Proof.
  intros n h j Hh Hj. unfold cyc_at. destruct (le_lt_dec n (h + j)) as [L|L]; [right|left]; split; try exact L.
  - rewrite mod_lt2; lia.
  - apply Nat.mod_small. exact L.
Qed.

Lemma at_lt : forall n h j, 0 < n -> cyc_at n h j < n.
Proof. intros n h j Hn. unfold cyc_at. apply Nat.mod_upper_bound. lia. Qed.

Lemma cd_lt : forall n a b, 0 < n -> cyc_dist n a b < n.
Proof. intros n a b Hn. unfold cyc_dist. apply Nat.mod_upper_bound. lia. Qed.

Lemma at_0 : forall n h, h < n -> cyc_at n h 0 = h.
Proof. intros n h Hh. destruct (at_cases n h 0); lia. Qed.

Lemma next_lt : forall n i, 0 < n -> next n i < n.
Proof. intros n i. exact (at_lt n i 1). Qed.

Lemma next_at : forall n h j, 0 < n -> next n (cyc_at n h j) = cyc_at n h (S j).
Proof.
  intros n h j Hn. unfold next, cyc_at. rewrite Nat.add_mod_idemp_l by lia. f_equal. lia.
Qed.

Lemma next_inj : forall n a b, a < n -> b < n -> next n a = next n b -> a = b.
Proof.
  intros n a b Ha Hb. change (cyc_at n a 1 = cyc_at n b 1 -> a = b).
  pose proof (at_cases n a 1). pose proof (at_cases n b 1). lia.
Qed.

Lemma next_neq : forall n a, 2 <= n -> a < n -> next n a <> a.
Proof.
  intros n a Hn Ha. change (cyc_at n a 1 <> a). destruct (at_cases n a 1); lia.
Qed.

Lemma at_cd : forall n h p, h < n -> p < n -> cyc_at n h (cyc_dist n h p) = p.
Proof.
  intros n h p Hh Hp. pose proof (cd_lt n h p ltac:(lia)).
  pose proof (cd_cases n h p Hh Hp). pose proof (at_cases n h (cyc_dist n h p) Hh). lia.
Qed.

Lemma cd_next_l : forall n i e, i < n -> e < n -> i <> e ->
  cyc_dist n i e = S (cyc_dist n (next n i) e).
Proof.
  intros n i e Hi He Hne. pose proof (next_lt n i ltac:(lia)). change (next n i) with (cyc_at n i 1) in *.
  pose proof (at_cases n i 1). pose proof (cd_cases n i e). pose proof (cd_cases n (cyc_at n i 1) e). lia.
Qed.

Lemma cd_next_r : forall n h p, h < n -> p < n ->
  cyc_dist n h (next n p) = S (cyc_dist n h p) \/ (S (cyc_dist n h p) = n /\ cyc_dist n h (next n p) = 0).
Proof.
  intros n h p Hh Hp. pose proof (next_lt n p ltac:(lia)). change (next n p) with (cyc_at n p 1) in *.
  pose proof (at_cases n p 1). pose proof (cd_cases n h p). pose proof (cd_cases n h (cyc_at n p 1)). lia.
Qed.
