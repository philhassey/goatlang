(* C06: the five predicates of C06_ctl assembled by one induction on the fuel (all_ok); the link from
   reachability (star) to the executable `run` (skeleton_ok); for a switch, the block it selects
   (switch_selected) and the default when no guard holds (no_match). *)
From Coq Require Import ZArith List Bool Lia.
From GV Require Import GoSpec.GoCtl Model.Ctl Proofs.C06_base Proofs.C06_ctl.
Import ListNotations.
Open Scope Z_scope.

Section Main.
  Variable orc : oracle.

  Lemma all_ok : forall f, P_stmt orc f /\ P_block orc f /\ P_for orc f /\ P_range orc f /\ P_cases orc f.
  Proof.
    induction f as [|f [IHs [IHb [IHf [IHr IHc]]]]].
    - unfold P_stmt, stmt_ok, P_block, P_for, P_range, P_cases. repeat split; intros; discriminate.
    - assert (Hb : P_block orc (S f)) by (apply ok_block_S; auto).
      repeat split; auto.
      + apply ok_stmt_S; auto.
      + apply ok_for_S; auto.
      + apply ok_range_S; auto.
      + apply ok_cases_S; auto.
  Qed.

  Lemma fetch_inside : forall C p i, fetch C p = Some i -> p < len C.
  Proof.
    intros C p i F. unfold fetch in F. destruct (Z.ltb_spec p 0); [discriminate|].
    assert (Z.to_nat p < length C)%nat by (apply nth_error_Some; congruence).
    unfold len. lia.
  Qed.

  Lemma star_run : forall C c c' r, star orc C c c' -> (exists fuel, run orc fuel C c' = r) ->
    exists fuel, run orc fuel C c = r.
  Proof.
    induction 1 as [|c c1 c' H _ IH]; intros Hr; [exact Hr|].
    destruct (IH Hr) as [fuel Hf]. exists (S fuel). cbn [run].
    assert (pc c < len C).
    { unfold step in H. destruct (fetch C (pc c)) eqn:F; [|discriminate]. exact (fetch_inside _ _ _ F). }
    destruct (Z.leb_spec (len C) (pc c)); [lia|]. rewrite H. exact Hf.
  Qed.

  Lemma star_run_finished : forall C c c', star orc C c c' -> len C <= pc c' ->
    exists fuel, run orc fuel C c = Finished (ctr c') (stk c').
  Proof.
    intros C c c' S Hend. apply (star_run C c c' _ S). exists 1%nat. cbn [run].
    destruct (Z.leb_spec (len C) (pc c')); [reflexivity | lia].
  Qed.

  Lemma star_run_returned : forall C c c' n, star orc C c c' -> fetch C (pc c') = Some (CReturn n) ->
    exists fuel, run orc fuel C c = Ret_at (pc c') (ctr c') (stk c').
  Proof.
    intros C c c' n S Hr. apply (star_run C c c' _ S). exists 1%nat. cbn [run].
    pose proof (fetch_inside _ _ _ Hr). destruct (Z.leb_spec (len C) (pc c')); [lia|].
    unfold step. rewrite Hr. reflexivity.
  Qed.

  (* what the machine does with the compiled function body, for an outcome of the Go semantics *)
  Definition machine_agrees (b : block) (tr0 : trace) (s0 : nat -> sval) (out : outcome) (tr' : trace) : Prop :=
    match out with
    | Normal => exists fuel, run orc fuel (compile_ctl b) (mkCfg 0 tr0 [] s0) = Finished tr' []
    | Ret => exists fuel p, run orc fuel (compile_ctl b) (mkCfg 0 tr0 [] s0) = Ret_at p tr' []
    | Brk | Cont => True      (* not an outcome of a function body in a valid Go program *)
    end.

  Lemma skeleton_ok : forall b fuel tr0 s0 out tr',
    exec_block orc fuel b tr0 = Some (out, tr') -> machine_agrees b tr0 s0 out tr'.
  Proof.
    intros b fuel tr0 s0 out tr' E.
    destruct (all_ok fuel) as [_ [Hb _]].
    pose proof (Hb b tr0 out tr' E (compile_ctl b) 0 0%nat None None [] s0 (carries_self _)) as R.
    unfold compile_ctl in *. destruct out; cbn [C06_base.post_ok machine_agrees] in *; auto.
    - destruct R as [s' [S _]].
      destruct (star_run_finished _ _ _ S) as [mf Hm]; [cbn [pc]; lia|]. exists mf. exact Hm.
    - destruct R as [pr [n [[s' [S _]] F]]].
      destruct (star_run_returned _ _ _ n S F) as [mf Hm]. exists mf, pr. exact Hm.
  Qed.

  (* The block a switch runs and the trace at which it starts: the first case one of whose guards holds,
     the guards evaluated top to bottom and left to right; the default if there is none. *)
  Fixpoint select (tag : option Z) (cs : cases) (dflt : block) (tr : trace) : block * trace :=
    match cs with
    | CNil => (dflt, tr)
    | CCons g gs body cs' =>
        let '(m, tr1) := eval_guards orc tag (g :: gs) tr in
        if m then (body, tr1) else select tag cs' dflt tr1
    end.

  Lemma exec_cases_select : forall cs tag dflt tr b t fuel r,
    select tag cs dflt tr = (b, t) -> exec_block orc fuel b t = Some r ->
    exists f, exec_cases orc f tag cs dflt tr = Some r.
  Proof.
    induction cs as [|g gs body cs' IH]; intros tag dflt tr b t fuel r Hs E; cbn [select] in Hs.
    - injection Hs as <- <-. exists (S fuel). exact E.
    - destruct (eval_guards orc tag (g :: gs) tr) as [[] tr1] eqn:G.
      + injection Hs as <- <-. exists (S fuel). rewrite exec_cases_S, G. exact E.
      + destruct (IH _ _ _ _ _ _ _ Hs E) as [f Hf]. exists (S f). rewrite exec_cases_S, G. exact Hf.
  Qed.

  (* When the selected block runs to a normal end, the machine running the switch finishes with that block's
     trace: no fall through, no event from another case, the default exactly when nothing matches. *)
  Theorem switch_selected : forall tag cs dpos dflt b t fuel tr0 s0 tr',
    select (option_map (o_tag orc tr0) tag) cs dflt (match tag with Some k => EvTag k :: tr0 | None => tr0 end) = (b, t) ->
    exec_block orc fuel b t = Some (Normal, tr') ->
    exists mf, run orc mf (compile_ctl (BCons (Switch tag cs dpos dflt) BNil)) (mkCfg 0 tr0 [] s0) = Finished tr' [].
  Proof.
    intros tag cs dpos dflt b t fuel tr0 s0 tr' Hs E.
    destruct (exec_cases_select _ _ _ _ _ _ _ _ Hs E) as [f Hf].
    apply (skeleton_ok _ (S (S f)) tr0 s0 Normal tr').
    rewrite exec_block_S, exec_S. cbv zeta. destruct tag; cbn [option_map] in Hf; rewrite Hf; reflexivity.
  Qed.

  (* The default clause.  Where it stands among the cases (the field dpos of Switch) is looked at neither by
     GoSpec/GoCtl.v nor by Model/Ctl.v: a dead field, so "the position does not matter" is a modelling
     assumption here, not a theorem (tied to the implementation only by the instruction-for-instruction
     correspondence of Model/CorrC06.v).  What IS proved about the default: it runs when no guard of any case
     holds, for any dpos. *)

  (* all guards of all cases, evaluated top to bottom, fail: the trace afterwards (None: some guard holds) *)
  Fixpoint no_match (tag : option Z) (cs : cases) (tr : trace) : option trace :=
    match cs with
    | CNil => Some tr
    | CCons g gs _ cs' =>
        let '(m, tr1) := eval_guards orc tag (g :: gs) tr in
        if m then None else no_match tag cs' tr1
    end.

  Lemma no_match_select : forall cs tag dflt tr tr2, no_match tag cs tr = Some tr2 -> select tag cs dflt tr = (dflt, tr2).
  Proof.
    induction cs as [|g gs body cs' IH]; intros tag dflt tr tr2 H; cbn [no_match select] in *.
    - injection H as <-. reflexivity.
    - destruct (eval_guards orc tag (g :: gs) tr) as [[] tr1]; [discriminate | exact (IH _ _ _ _ H)].
  Qed.
End Main.
