(* C18, one instruction on a shared slot array: renumbering the slots of an instruction by
   b and running it on pre ++ sl ++ post (|pre| = b) is running it on sl, the other slots untouched
   (by opcode). *)
From Coq Require Import ZArith List String Ascii Bool Lia.
From GV Require Import GoSpec.GoPrim Gen.ValueOps_gen Gen.Tables_gen Model.VM Model.Incr Proofs.VM_step Proofs.C18_step Proofs.C18_seq.
Import ListNotations.
Open Scope Z_scope.

Definition map_sres (F : list value -> list value) (r : sres) : sres :=
  match r with
  | SNext sl o s => SNext (F sl) o s
  | SJump d sl o s => SJump d (F sl) o s
  | SCall p fa xa xr sl o s => SCall p fa xa xr (F sl) o s
  | SRet sl o s => SRet (F sl) o s
  | other => other
  end.

Lemma split_shift : forall v b, 0 <= v < 4294967296 -> 0 <= b ->
  fst (splitParams v) + b < 32768 -> snd (splitParams v) + b < 32768 ->
  splitParams (v + b * 65537) = (fst (splitParams v) + b, snd (splitParams v) + b).
Proof.
  intros v b Hv Hb. unfold splitParams. cbn [fst snd].
  change 65535 with (Z.ones 16). rewrite !Z.land_ones, !Z.shiftr_div_pow2 by lia.
  change (2 ^ 16) with 65536. intros H1 H2.
  (* v + b * 65537 = (hi + b) * 65536 + (lo + b), and neither half overflows *)
  f_equal; Z.div_mod_to_equations; lia.
Qed.

Section Slots.
  Variable grow : Z -> Z -> Z.
  Variable ext_get : st -> value -> value -> option (res value).
  Variable ext_set : st -> value -> value -> value -> option (res st).
  Variable ext_len : st -> value -> option Z.
  Variable ext_getattr : st -> value -> Z -> option (res (value * st)).
  Variable ext_setattr : st -> value -> Z -> value -> option (res st).
  Notation step1 := (VM.step1 grow ext_get ext_set ext_len ext_getattr ext_setattr).

  (* what Incr.slots_okb says of a top-level instruction of a frame of n slots *)
  Definition slots_in (i : instr) (n : Z) : Prop :=
    forallb (fun a => (0 <=? a) && (a <? n)) (slot_uses i) = true /\
    ((icode i =? c_Iter) = true -> 0 <= iB i < 4294967296).

  Notation F pre post := (fun x : list value => (pre ++ x ++ post)%list).

  Theorem step1_slots : forall codes pc i pre sl post ops s,
    slots_in i (zlen sl) -> zlen pre + zlen sl < slot_limit ->
    step1 codes pc (shift_instr (zlen pre) i) (pre ++ sl ++ post)%list ops s =
    map_sres (F pre post) (step1 codes pc i sl ops s).
  Proof.
    intros codes pc i pre sl post ops s [Hu Hi] Hlim. revert Hu Hi.
    unfold shift_instr, slot_uses, slotA, slotB, slot_limit in *.
    by_opcode i; intros Hu Hi; rewrite ?Z.add_0_r;
      [ .. | rewrite step1_other by exact Hc; cbn [icode]; destruct (icode i <? 0); reflexivity ].
    all: try match goal with |- context [splitParams (?x + _)] =>
           pose proof (split_shift x (zlen pre) (Hi eq_refl) (zlen_nonneg pre)) as Hs;
           destruct (splitParams x) as [b1 b2]; cbn [fst snd] in Hs
         end.
    all: cbn [app forallb] in Hu; rewrite ?andb_true_iff, ?Z.leb_le, ?Z.ltb_lt in Hu; try rewrite Hs by lia.
    all: unfold slift; try (rewrite !znth_mid by lia); repeat split_match;
      rewrite ?zset_mid by (rewrite ?zlen_zset; lia); reflexivity.
  Qed.
End Slots.
