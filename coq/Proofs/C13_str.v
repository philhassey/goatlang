(* Proofs about Model/Str.v: indexing, slicing, range, conversions, copy, ordering,
   literal glue.  Strings are arbitrary lists of Z; only data_string_bytes needs them to be bytes. *)
From Coq Require Import ZArith List Bool Lia ZifyBool.
From GV Require Import GoSpec.GoPrim GoSpec.Utf8 Gen.ValueOps_gen Model.Str Proofs.C04_ops Proofs.C13_utf8.
Import ListNotations.
Open Scope Z_scope.

Lemma blen_app {A} (a b : list A) : blen (a ++ b) = blen a + blen b.
Proof. unfold blen. rewrite app_length. lia. Qed.

Lemma uint8_val b : fn_Uint8 b = mkValue 3 (Zn b) PNone.
Proof. reflexivity. Qed.

Lemma int_val z : in_range I32 z = true -> fn_Int z = mkValue 23 (Zn z) PNone.
Proof. intros H. unfold fn_Int. rewrite (wrap_id I32 z H). reflexivity. Qed.

(* Value.Int() is the conversion to int64: it leaves an int32 as it is *)
Lemma Value_Int_id t z p : in_range I32 z = true -> Value_Int (mkValue t (Zn z) p) = z.
Proof. intros H. apply (cvt_id I64), (in_range_64 I32 z (Z.le_refl 32) H). Qed.

Lemma go_index_in s i b : 0 <= i -> nth_error s (Z.to_nat i) = Some b -> go_index s i = Ok b.
Proof.
  intros Hi Hn. unfold go_index, blen.
  assert (Z.to_nat i < length s)%nat by (apply nth_error_Some; congruence).
  destruct (_ || _) eqn:E; [lia|]. f_equal. apply nth_error_nth, Hn.
Qed.

Lemma go_index_out s i : ~ (0 <= i < blen s) -> go_index s i = Panic.
Proof. intros H. unfold go_index. destruct (_ || _) eqn:E; [reflexivity|lia]. Qed.

Lemma index_some {A} (s : list A) i : 0 <= i < blen s -> exists b, nth_error s (Z.to_nat i) = Some b.
Proof.
  intros H. destruct (nth_error s (Z.to_nat i)) as [b|] eqn:E; [exists b; reflexivity|].
  apply nth_error_None in E. unfold blen in H. lia.
Qed.

Lemma firstn_app_exact {A} (a b : list A) : firstn (length a) (a ++ b) = a.
Proof. induction a; [destruct b; reflexivity|]. cbn. f_equal. assumption. Qed.

Lemma go_slice_in {A} (a m c : list A) : go_slice (a ++ m ++ c) (blen a) (blen a + blen m) = Ok m.
Proof.
  unfold go_slice, blen. destruct (_ || _) eqn:E; [rewrite !app_length in E; lia|].
  f_equal. replace (_ + _ - _) with (Z.of_nat (length m)) by lia.
  rewrite !Nat2Z.id, skipn_app_exact. apply firstn_app_exact.
Qed.

Lemma go_slice_out {A} (s : list A) i j : ~ (0 <= i <= j /\ j <= blen s) -> go_slice s i j = Panic.
Proof. intros H. unfold go_slice. destruct (_ || _) eqn:E; [reflexivity|lia]. Qed.

Lemma split3 {A} (s : list A) i j : 0 <= i <= j -> j <= blen s ->
  exists a m c, s = (a ++ m ++ c)%list /\ blen a = i /\ blen m = j - i.
Proof.
  intros H1 H2. unfold blen in *.
  exists (firstn (Z.to_nat i) s), (firstn (Z.to_nat (j - i)) (skipn (Z.to_nat i) s)), (skipn (Z.to_nat (j - i)) (skipn (Z.to_nat i) s)).
  split; [now rewrite !firstn_skipn|]. rewrite !firstn_length, skipn_length. lia.
Qed.

Lemma Value_Slice_string s i j : Value_Slice (fn_String s) i j = (r <- go_slice s i j ;; Ok (fn_String r)).
Proof. reflexivity. Qed.

(* codeSlice: both bounds given, or the omitted upper bound (nil) meaning len *)
Lemma code_slice_string s ka kb : code_slice (fn_String s) ka kb =
  Value_Slice (fn_String s) (Value_Int ka) (if vt kb =? TypeNil then blen s else Value_Int kb).
Proof. unfold code_slice. destruct (vt kb =? TypeNil); reflexivity. Qed.

Lemma slice_string_in : forall (a m c : list Z),
  Value_Slice (fn_String (a ++ m ++ c)) (blen a) (blen a + blen m) = Ok (fn_String m).
Proof. intros. rewrite Value_Slice_string, go_slice_in. reflexivity. Qed.

Lemma slice_string_out : forall s i j, ~ (0 <= i <= j /\ j <= blen s) -> Value_Slice (fn_String s) i j = Panic.
Proof. intros. rewrite Value_Slice_string, go_slice_out by assumption. reflexivity. Qed.

Lemma skipn_nth {A} (d : A) (l : list A) : forall n, (n < length l)%nat -> skipn n l = nth n l d :: skipn (S n) l.
Proof. induction l as [|x l IH]; intros [|n] H; cbn [length] in H; try lia; [reflexivity|]. apply IH. lia. Qed.

(* the closure of stringT.Range, started at index n, yields the pairs from n on *)
Lemma iter_all_at (l : list (Z * Z)) : forall fuel n, (length l - n < fuel)%nat ->
  iter_all fuel (mkIter (map snd l) (map fst l) n) = map (fun p => (fn_Int (fst p), fn_Int32 (snd p))) (skipn n l).
Proof.
  induction fuel as [|f IH]; intros n Hf; [lia|].
  cbn [iter_all]. unfold iter_next. cbn [it_r it_offsets it_n]. rewrite map_length.
  destruct (length l <=? n)%nat eqn:E.
  - apply Nat.leb_le in E. rewrite skipn_all2 by lia. reflexivity.
  - apply Nat.leb_gt in E. rewrite IH, (skipn_nth (0, 0) l n E) by lia. cbn [map].
    rewrite <- (map_nth fst), <- (map_nth snd). reflexivity.
Qed.

(* []byte(s): one uint8 element per byte, slice type []uint8 *)
Lemma to_bytes_string s : convert_to_slice (fn_String s) = Ok (fn_sliceType TypeUint8, map (fun b => mkValue 3 (Zn b) PNone) s).
Proof. reflexivity. Qed.

(* string(b) of a slice of uint8 values: each element is truncated to a byte, which it is already *)
Lemma data_string_bytes s : bytes s -> convert_data_to_string (map fn_Byte s) = fn_String s.
Proof.
  intros H. unfold convert_data_to_string. f_equal. induction H as [|b s Hb _ IH]; [reflexivity|].
  cbn [map]. f_equal; [|exact IH]. apply (cvt_id U8). unfold byte in Hb. unfold in_range. cbn. lia.
Qed.

(* string(r) for a numeric value: UTF-8 of the rune, U+FFFD for non-scalar values *)
Lemma conv_rune_string t r : Z.land t 3 <> 0 -> t <> 64 -> in_range I32 r = true ->
  convert_to_string (mkValue t (Zn r) PNone) = Ok (fn_String (utf8_encode r)).
Proof.
  intros Hn Hs Hr. unfold convert_to_string, Value_convert. cbn [vt vnum].
  unfold TypeUint8, TypeInt8, TypeInt32, TypeUint32, TypeFloat64, TypeString, isNumericMask.
  cbn [Z.eqb]. replace (t =? 64) with false by lia.
  replace (negb (Z.land t 3 =? 0)) with true by lia. rewrite (cvt_id I32 r Hr). reflexivity.
Qed.

(* copy without the min: whichever list is shorter, one of the two pieces is cut by its own length *)
Lemma go_copy_eq {A} (dst src : list A) :
  go_copy dst src = (firstn (length dst) src ++ skipn (length src) dst)%list.
Proof.
  unfold go_copy. destruct (Nat.le_ge_cases (length dst) (length src)) as [H|H].
  - rewrite Nat.min_l, !skipn_all2 by lia. reflexivity.
  - rewrite Nat.min_r, firstn_all, firstn_all2 by lia. reflexivity.
Qed.

Lemma copy_length {A} (dst src : list A) : length (go_copy dst src) = length dst.
Proof. unfold go_copy. rewrite app_length, firstn_length, skipn_length. lia. Qed.

(* lexicographic order, declaratively: s is a proper prefix of t, or at the first
   position where they differ s has the smaller byte *)
Definition lex_lt (s t : list Z) : Prop :=
  exists p, (exists c t', s = p /\ t = (p ++ c :: t')%list) \/
            (exists a b s' t', s = (p ++ a :: s')%list /\ t = (p ++ b :: t')%list /\ a < b).

Lemma bytes_ltb_cons x s y t : bytes_ltb (x :: s) (y :: t) = (x <? y) || ((x =? y) && bytes_ltb s t).
Proof. cbn [bytes_ltb]. destruct (Z.ltb_spec x y), (Z.ltb_spec y x), (Z.eqb_spec x y); try lia; reflexivity. Qed.

Lemma bytes_ltb_app p s t : bytes_ltb (p ++ s) (p ++ t) = bytes_ltb s t.
Proof. induction p as [|x p IH]; [reflexivity|]. cbn [app]. rewrite bytes_ltb_cons, Z.ltb_irrefl, Z.eqb_refl. exact IH. Qed.

Lemma bytes_ltb_lex s t : bytes_ltb s t = true <-> lex_lt s t.
Proof.
  split.
  - revert t. induction s as [|x s IH]; intros [|y t]; try discriminate.
    { intros _. exists []. left. exists y, t. split; reflexivity. }
    rewrite bytes_ltb_cons. destruct (Z.ltb_spec x y) as [A|A]; [intros _; exists []; right; exists x, y, s, t; auto|].
    destruct (Z.eqb_spec x y) as [<-|B]; [|discriminate].
    intros H. destruct (IH t H) as [p [(c & t' & -> & ->)|(a & b & s' & t' & -> & -> & L)]]; exists (x :: p).
    + left. exists c, t'. split; reflexivity.
    + right. exists a, b, s', t'. auto.
  - intros [p [(c & t' & -> & ->)|(a & b & s' & t' & -> & -> & L)]].
    + rewrite <- (app_nil_r p) at 1. rewrite bytes_ltb_app. reflexivity.
    + rewrite bytes_ltb_app, bytes_ltb_cons. lia.
Qed.

Lemma bytes_eqb_eq s : forall t, bytes_eqb s t = true <-> s = t.
Proof.
  induction s as [|x s IH]; intros [|y t]; cbn [bytes_eqb]; try (split; discriminate); [split; reflexivity|].
  rewrite andb_true_iff, IH, Z.eqb_eq. split; [intros [-> ->]; reflexivity|intros H; inversion H; auto].
Qed.

Lemma bytes_ltb_irrefl s : bytes_ltb s s = false.
Proof. rewrite <- (app_nil_r s). exact (bytes_ltb_app s [] []). Qed.

Lemma bytes_ltb_trans s : forall t u, bytes_ltb s t = true -> bytes_ltb t u = true -> bytes_ltb s u = true.
Proof.
  induction s as [|x s IH]; intros [|y t] [|z u]; try discriminate; try reflexivity.
  rewrite !bytes_ltb_cons. specialize (IH t u). destruct (bytes_ltb s t), (bytes_ltb t u), (bytes_ltb s u); lia.
Qed.

Lemma bytes_trichotomy s : forall t,
  (bytes_ltb s t = true /\ bytes_eqb s t = false /\ bytes_ltb t s = false) \/
  (bytes_ltb s t = false /\ bytes_eqb s t = true /\ bytes_ltb t s = false) \/
  (bytes_ltb s t = false /\ bytes_eqb s t = false /\ bytes_ltb t s = true).
Proof.
  induction s as [|x s IH]; intros [|y t]; auto.
  rewrite !bytes_ltb_cons. cbn [bytes_eqb]. specialize (IH t). destruct (bytes_ltb s t), (bytes_eqb s t), (bytes_ltb t s); lia.
Qed.

Lemma bytes_leb_not_gt s t : bytes_leb s t = negb (bytes_ltb t s).
Proof.
  unfold bytes_leb. destruct (bytes_trichotomy s t) as [[A [B C]]|[[A [B C]]|[A [B C]]]]; rewrite A, B, C; reflexivity.
Qed.

(* literals: the goatlang-side glue around strconv *)
Section Lit.
  Variable unquoteChar : list Z -> Z -> option (Z * bool * list Z).

  (* 'body' : the text handed to strconv.UnquoteChar is exactly what is between the quotes, quote = '\'' *)
  Lemma char_glue body q1 q2 :
    token_Char unquoteChar (q1 :: body ++ [q2]) =
    Ok (match unquoteChar body 39 with Some (v, _, _) => v | None => 0 end).
  Proof.
    unfold token_Char.
    change (q1 :: body ++ [q2])%list with ([q1] ++ body ++ [q2])%list.
    replace (blen ([q1] ++ body ++ [q2]) - 1) with (blen [q1] + blen body) by (rewrite !blen_app; unfold blen; cbn [length]; lia).
    change 1 with (blen [q1]) at 1. rewrite go_slice_in. cbn [bind].
    destruct (unquoteChar body 39) as [[[v m] tl]|]; reflexivity.
  Qed.

  (* a text too short to have two quotes cannot be sliced: Go panics (text/scanner never produces one) *)
  Lemma char_short text : (length text < 2)%nat -> token_Char unquoteChar text = Panic.
  Proof. intros H. unfold token_Char. rewrite go_slice_out; [reflexivity|]. unfold blen. lia. Qed.
End Lit.
