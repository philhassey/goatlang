(* C18: fuel monotonicity of Model/VM.v [exec]; what one instruction can do, by opcode [step1_shape]; and exec's loop
   written as one [turn] per instruction [exec_turn], the form C18_seq and C18_run reason in. *)
From Coq Require Import ZArith List String Ascii Bool Lia.
From GV Require Import GoSpec.GoPrim Gen.ValueOps_gen Gen.Tables_gen Model.VM Model.Incr Proofs.VM_step Proofs.C09_call.
Import ListNotations.
Open Scope Z_scope.

Section Exec.
  Variable grow : Z -> Z -> Z.
  Variable ext_get : st -> value -> value -> option (res value).
  Variable ext_set : st -> value -> value -> value -> option (res st).
  Variable ext_len : st -> value -> option Z.
  Variable ext_getattr : st -> value -> Z -> option (res (value * st)).
  Variable ext_setattr : st -> value -> Z -> value -> option (res st).
  Notation step1 := (VM.step1 grow ext_get ext_set ext_len ext_getattr ext_setattr).
  Notation exec := (VM.exec grow ext_get ext_set ext_len ext_getattr ext_setattr).
  Notation call_fn := (VM.call_fn grow ext_get ext_set ext_len ext_getattr ext_setattr).
  Notation exec_S := (exec_S grow ext_get ext_set ext_len ext_getattr ext_setattr).

  Lemma fuel_mono : forall f,
    (forall codes pc sl ops s r f', exec f codes pc sl ops s = r -> r <> RFuel -> (f <= f')%nat ->
                                    exec f' codes pc sl ops s = r) /\
    (forall pack fa xa xr pos ops s r f', call_fn f pack fa xa xr pos ops s = r -> r <> CErr RFuel -> (f <= f')%nat ->
                                    call_fn f' pack fa xa xr pos ops s = r).
  Proof.
    induction f as [|f [IHe IHc]].
    - split; intros; cbn [VM.exec VM.call_fn] in *; subst; exfalso; auto.
    - split.
      + intros codes pc sl ops s r f' H Hr Hle.
        destruct f' as [|f']; [lia|]. assert (Hle' : (f <= f')%nat) by lia.
        rewrite exec_S in *.
        destruct (znth codes pc) as [i|]; [|exact H].
        destruct (step1 codes pc i sl ops s) eqn:E; try exact H.
        * eapply IHe; eauto.
        * eapply IHe; eauto.
        * destruct (call_fn f pack fa xArgs xRets (ipos i) ops0 s0) eqn:Ec.
          -- rewrite (IHc _ _ _ _ _ _ _ _ f' Ec); [| congruence | exact Hle']. eapply IHe; eauto.
          -- rewrite (IHc _ _ _ _ _ _ _ _ f' Ec); [exact H | | exact Hle']. intro X; inversion X; subst; congruence.
      + intros pack fa xa xr pos ops s r f' H Hr Hle.
        destruct f' as [|f']; [lia|]. assert (Hle' : (f <= f')%nat) by lia.
        rewrite call_fn_pre in *.
        destruct (call_pre pack fa xa xr pos ops s) as [c|[e rest]]; [exact H|].
        match type of H with context [exec f ?b ?p ?sl ?o ?s] => destruct (exec f b p sl o s) eqn:Ee end;
          try (rewrite (IHe _ _ _ _ _ _ f' Ee); [exact H | congruence | exact Hle']).
        exfalso; apply Hr; rewrite <- H; reflexivity.
  Qed.

  Lemma exec_mono : forall f f' codes pc sl ops s r,
    exec f codes pc sl ops s = r -> r <> RFuel -> (f <= f')%nat -> exec f' codes pc sl ops s = r.
  Proof. intros; eapply (proj1 (fuel_mono f)); eauto. Qed.
  Lemma call_mono : forall f f' pack fa xa xr pos ops s r,
    call_fn f pack fa xa xr pos ops s = r -> r <> CErr RFuel -> (f <= f')%nat -> call_fn f' pack fa xa xr pos ops s = r.
  Proof. intros; eapply (proj2 (fuel_mono f)); eauto. Qed.

  (* one turn of exec's loop on the answer of step1: the run goes on d instructions further, or ends *)
  Inductive next := Go (d : Z) (sl ops : list value) (s : st) | Stop (r : result).
  Definition turn (f : nat) (i : instr) (r : sres) : next :=
    match r with
    | SNext sl ops s => Go 1 sl ops s
    | SJump d sl ops s => Go (d + 1) sl ops s
    | SCall pack fa xArgs xRets sl ops s =>
        match call_fn f pack fa xArgs xRets (ipos i) ops s with
        | COk ops' s' => Go 1 sl ops' s'
        | CErr r => Stop r
        end
    | SRet sl ops s => Stop (RDone sl ops s)
    | SFail msg s => Stop (RFail msg (ipos i) s)
    | SStuck w => Stop (RStuck w)
    | SUnmod w => Stop (RUnmod w)
    end.

  Lemma exec_turn f codes pc sl ops s :
    exec (S f) codes pc sl ops s =
    match znth codes pc with
    | None => RDone sl ops s
    | Some i => match turn f i (step1 codes pc i sl ops s) with
                | Go d sl' ops' s' => exec f codes (pc + d) sl' ops' s'
                | Stop r => r
                end
    end.
  Proof.
    rewrite exec_S. destruct (znth codes pc) as [i|]; [|reflexivity].
    destruct (step1 codes pc i sl ops s); cbn [turn]; rewrite ?Z.add_assoc; try reflexivity.
    destruct (call_fn f pack fa xArgs xRets (ipos i) ops0 s0); reflexivity.
  Qed.

  Lemma turn_mono f f' i r n : turn f i r = n -> n <> Stop RFuel -> (f <= f')%nat -> turn f' i r = n.
  Proof.
    destruct r; cbn [turn]; auto. intros <- Hn Hle.
    destruct (call_fn f pack fa xArgs xRets (ipos i) ops s) eqn:E; rewrite (call_mono f f' _ _ _ _ _ _ _ _ E); congruence.
  Qed.

  (* where control goes after one instruction, in the terms of Incr.closed_at; slots are never added *)
  Definition step_shape (i : instr) (n : nat) (r : sres) : Prop :=
    match r with
    | SNext sl _ _ | SCall _ _ _ _ sl _ _ => icode i <> c_Func /\ List.length sl = n
    | SJump d sl _ _ => (if icode i =? c_Func then d = func_len i else In d (jumps i)) /\ List.length sl = n
    | SRet sl _ _ => icode i = c_Return /\ List.length sl = n
    | _ => True
    end.

  Lemma step1_shape codes pc i sl ops s : step_shape i (List.length sl) (step1 codes pc i sl ops s).
  Proof.
    unfold step_shape, jumps, func_len. by_opcode i.
    all: unfold slift; repeat split_match; rewrite ?zset_length; cbn [In]; auto; split; auto; discriminate.
  Qed.

  (* step1 looks at the code only to read the types and body that follow a FUNC *)
  Lemma step1_codes : forall codes codes' pc pc' i sl ops s,
    (icode i = c_Func ->
       firstn (Z.to_nat (func_len i)) (skipn (Z.to_nat (pc + 1)) codes) =
       firstn (Z.to_nat (func_len i)) (skipn (Z.to_nat (pc' + 1)) codes')) ->
    step1 codes pc i sl ops s = step1 codes' pc' i sl ops s.
  Proof.
    intros codes codes' pc pc' i sl ops s H. unfold VM.step1.
    destruct (icode i =? c_Func) eqn:E.
    - apply Z.eqb_eq in E. specialize (H E). unfold func_len in H.
      destruct (splitParams (iA i)) as [a r] eqn:Es. cbv zeta. rewrite H. reflexivity.
    - reflexivity.
  Qed.
End Exec.
