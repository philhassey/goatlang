(* C17, part 1: association lists, in-place heap update, and what evaluating a
   path / expression can change (it only allocates). *)
From Coq Require Import ZArith List Bool Lia.
From GV Require Import Model.Reload.
Import ListNotations.
Open Scope Z_scope.

Ltac inv H := inversion H; subst; clear H.

Section Assoc.
  Context {V : Type}.
  Implicit Types l : list (name * V).

  Lemma lookup_upsert_same : forall k v l, lookup k (upsert k v l) = Some v.
  Proof.
    induction l as [|[k' v'] r IH]; simpl.
    - now rewrite Z.eqb_refl.
    - destruct (k =? k') eqn:E; simpl; rewrite E; auto.
  Qed.
  Lemma lookup_upsert_other : forall k k' v l, k' <> k -> lookup k' (upsert k v l) = lookup k' l.
  Proof.
    intros k k' v l NE. apply Z.eqb_neq in NE. induction l as [|[k0 v0] r IH]; simpl.
    - now rewrite NE.
    - destruct (Z.eqb_spec k k0) as [->|]; simpl; [rewrite NE | rewrite IH]; reflexivity.
  Qed.
  Lemma upsert_noop : forall k v l, lookup k l = Some v -> upsert k v l = l.
  Proof.
    induction l as [|[k0 v0] r IH]; simpl; intros; try discriminate.
    destruct (Z.eqb_spec k k0) as [->|].
    - now inv H.
    - now rewrite IH.
  Qed.
  Lemma lookup_assign_other : forall k k' v l, k' <> k -> lookup k' (assign k v l) = lookup k' l.
  Proof.
    intros k k' v l NE. apply Z.eqb_neq in NE. induction l as [|[k0 v0] r IH]; simpl; auto.
    destruct (Z.eqb_spec k k0) as [->|]; simpl; [rewrite NE | rewrite IH]; reflexivity.
  Qed.
  Lemma lookup_upsert_comm : forall a b (x y : V) l k, a <> b ->
    lookup k (upsert a x (upsert b y l)) = lookup k (upsert b y (upsert a x l)).
  Proof.
    intros a b x y l k NE. destruct (Z.eq_dec k a) as [->|Ka]; [|destruct (Z.eq_dec k b) as [->|Kb]].
    - now rewrite lookup_upsert_same, lookup_upsert_other, lookup_upsert_same.
    - now rewrite lookup_upsert_other, !lookup_upsert_same by auto.
    - now rewrite !lookup_upsert_other.
  Qed.
  Lemma lookup_fold_upsert_notin : forall (fs : list (name * V)) l k, ~ In k (map fst fs) ->
    lookup k (fold_left (fun acc kv => upsert (fst kv) (snd kv) acc) fs l) = lookup k l.
  Proof.
    induction fs as [|[k0 v0] r IH]; simpl; intros; auto.
    rewrite IH by tauto. apply lookup_upsert_other. intro. subst. tauto.
  Qed.
  (* syncFields over distinct field names: afterwards every listed field has the listed value *)
  Lemma lookup_fold_upsert : forall (fs : list (name * V)) l k v, NoDup (map fst fs) -> In (k, v) fs ->
    lookup k (fold_left (fun acc kv => upsert (fst kv) (snd kv) acc) fs l) = Some v.
  Proof.
    induction fs as [|[k0 v0] r IH]; simpl; intros l k v ND HIn; [tauto|].
    inv ND. destruct HIn as [E|HIn].
    - inv E. rewrite lookup_fold_upsert_notin by auto. apply lookup_upsert_same.
    - now apply IH.
  Qed.
  Lemma fold_upsert_noop : forall (fs : list (name * V)) l,
    (forall k v, In (k, v) fs -> lookup k l = Some v) ->
    fold_left (fun acc kv => upsert (fst kv) (snd kv) acc) fs l = l.
  Proof.
    induction fs as [|[k0 v0] r IH]; simpl; intros; auto.
    rewrite upsert_noop by auto. apply IH. auto.
  Qed.
  Lemma lookup_nodup : forall l k v, NoDup (map fst l) -> In (k, v) l -> lookup k l = Some v.
  Proof.
    induction l as [|[k0 v0] r IH]; simpl; intros k v ND HI; [tauto|]. inv ND.
    destruct HI as [E|HI].
    - inv E. now rewrite Z.eqb_refl.
    - destruct (Z.eqb_spec k k0) as [->|]; auto.
      exfalso. apply H1. apply in_map_iff. exists (k0, v). auto.
  Qed.
End Assoc.

Section Heap.
  Context {A : Type}.
  Implicit Types l : list A.

  Lemma upd_length : forall l n x, length (upd l n x) = length l.
  Proof. induction l; destruct n; simpl; auto. Qed.
  Lemma nth_upd_same : forall l n x, (n < length l)%nat -> nth_error (upd l n x) n = Some x.
  Proof. induction l; destruct n; simpl; intros; try lia; auto. apply IHl. lia. Qed.
  Lemma nth_upd_other : forall l n m x, n <> m -> nth_error (upd l n x) m = nth_error l m.
  Proof. induction l; destruct n, m; simpl; intros; auto; try congruence. Qed.
  Lemma upd_noop : forall l n x, nth_error l n = Some x -> upd l n x = l.
  Proof.
    induction l; destruct n; simpl; intros; try discriminate.
    - now inv H.
    - now rewrite IHl.
  Qed.
  Lemma upd_app_l : forall l r a x, (a < length l)%nat -> upd (l ++ r) a x = (upd l a x ++ r)%list.
  Proof. induction l as [|z l IH]; intros r [|n] x; simpl; intros; try lia; auto. rewrite IH by lia. auto. Qed.
  Lemma upd_comm : forall l a b x y, a <> b -> upd (upd l a x) b y = upd (upd l b y) a x.
  Proof. induction l as [|z l IH]; intros [|n] [|m]; simpl; intros; auto; try congruence. rewrite IH; auto. Qed.
  Lemma upd_upd : forall l a x y, upd (upd l a x) a y = upd l a y.
  Proof. induction l as [|z l IH]; intros [|n]; simpl; intros; auto. now rewrite IH. Qed.
  Lemma Forall_upd : forall (P : A -> Prop) l n x, Forall P l -> P x -> Forall P (upd l n x).
  Proof. induction l; destruct n; simpl; intros x H Px; auto; inv H; constructor; auto. Qed.
  Lemma Forall_nth_error : forall (P : A -> Prop) l n x, Forall P l -> nth_error l n = Some x -> P x.
  Proof. intros. eapply Forall_forall; eauto. eapply nth_error_In; eauto. Qed.

  Lemma nth_lt : forall l n x, nth_error l n = Some x -> (n < length l)%nat.
  Proof. intros. apply nth_error_Some. congruence. Qed.
  Lemma nth_app_old : forall l x n y, nth_error l n = Some y -> nth_error (l ++ x) n = Some y.
  Proof. intros. rewrite nth_error_app1; auto. eapply nth_lt; eauto. Qed.
  Lemma nth_app_new : forall l x r, nth_error (l ++ x :: r) (length l) = Some x.
  Proof. intros. rewrite nth_error_app2 by lia. now rewrite Nat.sub_diag. Qed.
  Lemma nth_app_cases : forall l x c o, nth_error (l ++ x) c = Some o ->
    nth_error l c = Some o \/ ((length l <= c)%nat /\ nth_error x (c - length l) = Some o).
  Proof.
    intros. destruct (Nat.lt_ge_cases c (length l)).
    - left. now rewrite nth_error_app1 in H.
    - right. now rewrite nth_error_app2 in H.
  Qed.
  Lemma nth_app1_cases : forall l x c o, nth_error (l ++ [x]) c = Some o ->
    nth_error l c = Some o \/ (c = length l /\ o = x).
  Proof.
    intros. apply nth_app_cases in H. destruct H as [H|[LE H]]; auto. right.
    destruct (c - length l)%nat as [|[|k]] eqn:D; inv H. split; auto. lia.
  Qed.

  Lemma ext_refl : forall l, exists x, l = (l ++ x)%list.
  Proof. intros. exists []. now rewrite app_nil_r. Qed.
  Lemma ext_trans : forall a b c : list A, (exists x, b = a ++ x)%list -> (exists y, c = b ++ y)%list -> (exists z, c = a ++ z)%list.
  Proof. intros a b c [x ->] [y ->]. exists (x ++ y)%list. now rewrite app_assoc. Qed.
  Lemma ext_nth : forall l l' n y, (exists x, l' = l ++ x)%list -> nth_error l n = Some y -> nth_error l' n = Some y.
  Proof. intros l l' n y [x ->]. apply nth_app_old. Qed.

  Lemma NoDup_app_inv : forall a b : list A, NoDup (a ++ b) ->
    NoDup a /\ NoDup b /\ forall x, In x a -> In x b -> False.
  Proof.
    induction a as [|y a IH]; simpl; intros b ND.
    - repeat split; auto. constructor.
    - inv ND. destruct (IH b H2) as (Na & Nb & D). rewrite in_app_iff in H1. repeat split; auto.
      + constructor; tauto.
      + intros x [->|Ia] Ib; eauto.
  Qed.
End Heap.

Lemma map_upd : forall {A B} (f : A -> B) l n x, map f (upd l n x) = upd (map f l) n (f x).
Proof. induction l; destruct n; simpl; intros; auto. now rewrite IHl. Qed.

Lemma glookup_gset_same : forall st n v, lookup n (globals (gset st n v)) = Some v.
Proof. intros. apply lookup_upsert_same. Qed.
Lemma gget_gset_same : forall st n v, gget (gset st n v) n = v.
Proof. intros. unfold gget. now rewrite glookup_gset_same. Qed.
Lemma glookup_gset_other : forall st n n' v, n' <> n -> lookup n' (globals (gset st n v)) = lookup n' (globals st).
Proof. intros. unfold gset. simpl. now rewrite lookup_upsert_other. Qed.
Lemma gget_lookup : forall st st' x, lookup x (globals st') = lookup x (globals st) -> gget st' x = gget st x.
Proof. unfold gget. intros. now rewrite H. Qed.
Lemma gget_gset_other : forall st n n' v, n' <> n -> gget (gset st n v) n' = gget st n'.
Proof. intros. now apply gget_lookup, glookup_gset_other. Qed.
Lemma is_nil_eq : forall v, is_nil v = true -> v = VNil.
Proof. destruct v; simpl; congruence. Qed.

Lemma st_eta_funcs : forall st, set_funcs st (funcs st) = st. Proof. destruct st; reflexivity. Qed.
Lemma st_eta_types : forall st, set_types st (types st) = st. Proof. destruct st; reflexivity. Qed.
Lemma gset_noop : forall st n v, lookup n (globals st) = Some v -> gset st n v = st.
Proof. intros. unfold gset. rewrite upsert_noop by auto. destruct st; reflexivity. Qed.

Lemma overwrite_lt : forall st a b, (a < length (funcs st))%nat ->
  overwrite st a b = Some (set_funcs st (upd (funcs st) a (FBody b))).
Proof. intros. unfold overwrite. apply Nat.ltb_lt in H. now rewrite H. Qed.
Lemma overwrite_inv : forall st a b st', overwrite st a b = Some st' ->
  (a < length (funcs st))%nat /\ st' = set_funcs st (upd (funcs st) a (FBody b)).
Proof. unfold overwrite. intros. destruct (Nat.ltb_spec a (length (funcs st))); inv H. auto. Qed.

Lemma exec_list_app : forall a b st,
  exec_list st (a ++ b) = match exec_list st a with Some s => exec_list s b | None => None end.
Proof. induction a as [|i a IH]; simpl; intros; auto. destruct (exec_instr st i); auto. Qed.

(* Evaluating a path or an expression changes the state by two kinds of step only: GetIndex
   allocates a bound-method object, NEWSTRUCT allocates an instance.  A reflexive and transitive
   relation that admits both holds between the state before and the state after. *)
Record alloc_rel (R : state -> state -> Prop) : Prop := {
  ar_refl : forall s, R s s;
  ar_trans : forall a b c, R a b -> R b c -> R a c;
  ar_bound : forall s i o ty a f, nth_error (insts s) i = Some o ->
    nth_error (types s) (ity o) = Some ty -> lookup a (tmethods ty) = Some (VFunc f) ->
    R s (set_funcs s (funcs s ++ [FBound i f]));
  ar_inst : forall s o, R s (set_insts s (insts s ++ [o]))
}.

Section EvalRel.
  Variable R : state -> state -> Prop.
  Hypothesis AR : alloc_rel R.
  Let Rrefl := ar_refl R AR.
  Let Rtrans := ar_trans R AR.
  Let Rbound := ar_bound R AR.
  Let Rinst := ar_inst R AR.

  Lemma get_index_rel : forall st i a st' v, get_index st i a = Some (st', v) -> R st st'.
  Proof.
    unfold get_index. intros st i a st' v H.
    destruct (nth_error (insts st) i) as [o|] eqn:NI; try discriminate.
    destruct (lookup a (ifields o)); [inv H; auto|].
    destruct (nth_error (types st) (ity o)) as [ty|] eqn:NT; try discriminate.
    destruct (lookup a (tmethods ty)) as [[]|] eqn:L; inv H. eauto.
  Qed.
  Lemma eval_path_rel : forall p st st' v, eval_path st p = Some (st', v) -> R st st'.
  Proof.
    induction p; simpl; intros st st' v H.
    - inv H. auto.
    - destruct (nth_error (slots st) k); inv H. auto.
    - destruct (eval_path st p) as [[st1 []]|] eqn:E; try discriminate.
      eapply Rtrans; [eapply IHp | eapply get_index_rel]; eauto.
  Qed.
  Lemma eval_arg_rel : forall a st st' v, eval_arg st a = Some (st', v) -> R st st'.
  Proof. destruct a; simpl; intros st st' v H; [inv H; auto | eapply eval_path_rel; eauto]. Qed.
  Lemma eval_args_rel : forall fs st st' vs, eval_args st fs = Some (st', vs) -> R st st'.
  Proof.
    induction fs as [|[k a] r IH]; simpl; intros st st' vs H.
    - inv H. auto.
    - destruct (eval_arg st a) as [[st1 v]|] eqn:E; try discriminate.
      destruct (eval_args st1 r) as [[st2 vs']|] eqn:E2; inv H.
      eapply Rtrans; [eapply eval_arg_rel|]; eauto.
  Qed.
  Lemma eval_expr_rel : forall e st st' v, eval_expr st e = Some (st', v) -> R st st'.
  Proof.
    destruct e; simpl; intros st st' v H.
    - eapply eval_arg_rel; eauto.
    - destruct (eval_args st fs) as [[st1 vs]|] eqn:E; try discriminate.
      destruct (gget st1 t); try discriminate.
      destruct (nth_error (types st1) a); inv H.
      eapply Rtrans; [eapply eval_args_rel|]; eauto.
  Qed.
End EvalRel.

Definition frame (st st' : state) : Prop :=
  types st' = types st /\ globals st' = globals st /\ slots st' = slots st /\
  (exists x, funcs st' = funcs st ++ x)%list /\ (exists y, insts st' = insts st ++ y)%list.

Lemma frame_refl : forall st, frame st st.
Proof. intros. repeat split; auto using ext_refl. Qed.
Lemma frame_trans : forall a b c, frame a b -> frame b c -> frame a c.
Proof.
  intros a b c (T1 & G1 & S1 & F1 & I1) (T2 & G2 & S2 & F2 & I2).
  repeat split; try congruence; eapply ext_trans; eauto.
Qed.
Lemma frame_alloc : alloc_rel frame.
Proof.
  split; [exact frame_refl | exact frame_trans | |]; intros; repeat split; simpl; eauto using ext_refl.
Qed.

Definition eval_args_frame := eval_args_rel frame frame_alloc.
Definition eval_expr_frame := eval_expr_rel frame frame_alloc.

Lemma frame_gget : forall st st' n, frame st st' -> gget st' n = gget st n.
Proof. intros st st' n (_ & G & _). unfold gget. now rewrite G. Qed.
Lemma frame_fn_addr : forall st st' k, frame st st' -> fn_addr st' k = fn_addr st k.
Proof.
  intros st st' k F. pose proof (fun n => frame_gget st st' n F) as G. destruct F as (T & _).
  destruct k; simpl; rewrite G; auto. now rewrite T.
Qed.
Lemma frame_funcs_old : forall st st' a x, frame st st' -> nth_error (funcs st) a = Some x -> nth_error (funcs st') a = Some x.
Proof. intros st st' a x (_ & _ & _ & F & _). now apply ext_nth. Qed.
