(* The hand-written dispatch-loop model (Model/VM.v step1) agrees, opcode by opcode, with the cases that
   tools/go2v translates from /repo/do.go on every run (Gen/Steps_gen.v step_gen): for the translated
   opcodes the model IS what the Go source says. *)
From Coq Require Import ZArith List String Bool Lia.
From GV Require Import GoSpec.GoPrim Gen.ValueOps_gen Gen.Tables_gen Model.VM Gen.Steps_gen Proofs.VM_step.
Import ListNotations.
Open Scope string_scope.
Open Scope Z_scope.

(* equal, or both stuck with whatever diagnostic strings: the strings of the two sides differ (operand access
   below the frame's operands, bad slot or global index), so no two stuck results are told apart *)
Definition sres_same (a b : sres) : Prop :=
  a = b \/ (exists w1 w2, a = SStuck w1 /\ b = SStuck w2).

Ltac same_now :=
  first [ left; reflexivity
        | right; eexists; eexists; split; reflexivity ].

(* split on the shape of the operand stack, on slot / global lookups and on boolean tests until the two
   sides are convertible (or both stuck) *)
Ltac split_once :=
  match goal with
  | |- context [match ?x with _ => _ end] => is_var x; destruct x
  | |- context [znth ?l ?n] => destruct (znth l n)
  | |- context [Value_Bool ?x] => destruct (Value_Bool x)
  | |- context [Value_IsNil ?x] => destruct (Value_IsNil x)
  | |- context [obj_get ?e ?s ?r ?k ?p] => destruct (obj_get e s r k p)
  | |- context [obj_set ?e ?s ?r ?k ?v] => destruct (obj_set e s r k v)
  end; cbv beta iota delta [negb].

Ltac same := first [ same_now | split_once; same ].

(* The generated chains with their opcode constants [C "codeX"] computed from the generated opcode table, once:
   left as they are, every evaluation of a chain would look each name up in the table again. *)
Definition step_gen_num :=
  Eval cbv beta iota delta [step_gen C code_of opcodes String.eqb Ascii.eqb Bool.eqb] in step_gen.
Definition step_gen_obj_num :=
  Eval cbv beta iota delta [step_gen_obj C code_of opcodes String.eqb Ascii.eqb Bool.eqb] in step_gen_obj.
Lemma step_gen_num_eq : step_gen = step_gen_num. Proof. reflexivity. Qed.
Lemma step_gen_obj_num_eq : step_gen_obj = step_gen_obj_num. Proof. reflexivity. Qed.

(* reduces a generated chain on [mkI k ..], k a numeral, to the case it selects for k, or to None; computed
   outside the goal, as VM_step.step1_eval does for step1 *)
Ltac gen_eval :=
  let go t k := (
    let t' := eval cbv beta iota zeta delta [step_gen_num step_gen_obj_num icode ipos] in t in
    let t' := eval pattern (Z.eqb k) in t' in
    let t' := lazymatch t' with ?F _ => constr:(F (code_eqb k)) end in
    let t' := eval cbv beta iota delta [code_eqb orb] in t' in
    let t' := eval cbn [iA iB iC] in t' in
    change t with t') in
  match goal with
  | |- context [step_gen_num (mkI ?k ?a ?b ?cc ?p) ?sl ?ops ?s] => go (step_gen_num (mkI k a b cc p) sl ops s) k
  | |- context [step_gen_obj_num ?eg ?es (mkI ?k ?a ?b ?cc ?p) ?sl ?ops ?s] =>
      go (step_gen_obj_num eg es (mkI k a b cc p) sl ops s) k
  end.

(* outside the opcode table every test of a generated chain fails *)
Ltac gen_other Hc :=
  cbv zeta;
  repeat match goal with
         | |- context [?c =? ?k] => rewrite (code_other c k Hc) by reflexivity
         end; reflexivity.

Lemma step_gen_other i slots ops s :
  existsb (Z.eqb (icode i)) codes_list = false -> step_gen_num i slots ops s = None.
Proof. intros Hc. unfold step_gen_num. gen_other Hc. Qed.

Lemma step_gen_obj_other ext_get ext_set i slots ops s :
  existsb (Z.eqb (icode i)) codes_list = false -> step_gen_obj_num ext_get ext_set i slots ops s = None.
Proof. intros Hc. unfold step_gen_obj_num. gen_other Hc. Qed.

Theorem steps_agree : forall grow ext_get ext_set ext_len ext_getattr ext_setattr codes pc i slots ops s r,
  step_gen i slots ops s = Some r ->
  sres_same r (step1 grow ext_get ext_set ext_len ext_getattr ext_setattr codes pc i slots ops s).
Proof.
  intros grow ext_get ext_set ext_len ext_getattr ext_setattr codes pc i slots ops s r.
  unfold sres_same. rewrite step_gen_num_eq.
  by_opcode i; [ gen_eval; intros H; first [discriminate H | injection H as <-; same] ..
               | rewrite step_gen_other by exact Hc; discriminate ].
Qed.

Lemma existsb_eqb_In : forall n l, existsb (String.eqb n) l = true -> In n l.
Proof.
  intros n l H. apply existsb_exists in H. destruct H as [x [Hin Hx]].
  apply String.eqb_eq in Hx. subst x. exact Hin.
Qed.

Lemma step_gen_translated : forall name, In name step_gen_opcodes ->
  forall i slots ops s, icode i = C name -> step_gen i slots ops s <> None.
Proof.
  intros name Hin [c a b cc p] slots ops s Hc. cbn [icode] in Hc. subst c. rewrite step_gen_num_eq.
  revert name Hin. apply Forall_forall. unfold step_gen_opcodes.
  repeat (apply Forall_cons; [cbv beta; C_to_num; gen_eval; discriminate|]). apply Forall_nil.
Qed.

Definition steps_cover_names : list string :=
  ["codePush"; "codePop"; "codeAdd"; "codeSub"; "codeMul"; "codeDiv"; "codeMod"; "codeLt"; "codeGt"; "codeLte"; "codeGte";
   "codeEq"; "codeNeq"; "codeBitAnd"; "codeBitOr"; "codeBitXor"; "codeBitLsh"; "codeBitRsh"; "codeIncDec"; "codeLocalIncDec";
   "codeConvert"; "codeCast"; "codeNegate"; "codeBitComplement"; "codeNot"; "codeZero"; "codeAnd"; "codeOr";
   "codeGlobalSet"; "codeGlobalZero"; "codeGlobalGet"; "codeConst"; "codeLocalGet"; "codeLocalSet"; "codeLocalZero";
   "codeReturn"; "codeJump"; "codeJumpFalse"; "codeJumpTrue"; "codeLocalAdd"; "codeLocalSub"; "codeLocalMul"; "codeLocalDiv"; "codePass"].

Lemma steps_cover_names_translated :
  forallb (fun n => existsb (String.eqb n) step_gen_opcodes) steps_cover_names = true.
Proof. vm_compute. reflexivity. Qed.

(* the translated subset is not empty and covers what the other theorems rely on *)
Theorem steps_cover : forall name, In name steps_cover_names ->
  In name step_gen_opcodes /\
  forall i slots ops s, icode i = C name -> step_gen i slots ops s <> None.
Proof.
  intros name Hin.
  assert (Ht : In name step_gen_opcodes).
  { apply existsb_eqb_In.
    exact (proj1 (forallb_forall _ _) steps_cover_names_translated name Hin). }
  split; [ exact Ht | exact (step_gen_translated name Ht) ].
Qed.

Print Assumptions steps_agree.
Print Assumptions steps_cover.

(* the dispatch cases around Value.Get / Value.Set (GET, SET and their fused forms) *)

Theorem steps_agree_obj : forall grow ext_get ext_set ext_len ext_getattr ext_setattr codes pc i slots ops s r,
  step_gen_obj ext_get ext_set i slots ops s = Some r ->
  sres_same r (step1 grow ext_get ext_set ext_len ext_getattr ext_setattr codes pc i slots ops s).
Proof.
  intros grow ext_get ext_set ext_len ext_getattr ext_setattr codes pc i slots ops s r.
  unfold sres_same. rewrite step_gen_obj_num_eq.
  by_opcode i; [ gen_eval; intros H; first [discriminate H | injection H as <-; same] ..
               | rewrite step_gen_obj_other by exact Hc; discriminate ].
Qed.
Print Assumptions steps_agree_obj.

(* the object dispatch cases are all translated *)
Theorem steps_cover_obj : forall name, In name ["codeGet"; "codeSet"; "codeFastGet"; "codeFastSet"; "codeFastGetInt"; "codeFastSetInt"] ->
  In name step_gen_obj_opcodes /\
  forall ext_get ext_set i slots ops s, icode i = C name -> step_gen_obj ext_get ext_set i slots ops s <> None.
Proof.
  intros name Hin. split.
  - apply existsb_eqb_In. cbn [In] in Hin.
    repeat (destruct Hin as [<-|Hin]; [vm_compute; reflexivity|]). destruct Hin.
  - intros ext_get ext_set i slots ops s Hc. unfold step_gen_obj. cbv zeta. rewrite Hc. cbn [In] in Hin.
    repeat (destruct Hin as [<-|Hin]; [discriminate|]). destruct Hin.
Qed.
Print Assumptions steps_cover_obj.
