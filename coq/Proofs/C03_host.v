(* C03: containment over Model/Host.v.  entry_outcome says what each entry point can hand back: no Escape under
   entry_hyps, every Err with a stage prefix, every Hang traced to its stage.  Before it, the facts the glue's
   index and slice expressions rest on: positions pack and unpack field by field, the loader returns at least
   the top package and stays within its budget, a dumped tree renders to at least four bytes. *)
From Coq Require Import ZArith List String Bool Lia PeanoNat.
From GV Require Import Model.Loader Model.Host Proofs.C15_loader.
Import ListNotations.
Open Scope string_scope.
Open Scope Z_scope.

Lemma tokenize_spec : forall b,
  match tokenize_model b with
  | SOk l => l <> [] /\ last l eof = eof
  | SErr => True
  | SEscape _ => b = ScanPanic
  | SHang => False
  end.
Proof. intros [l|l|]; cbn; auto. split; [destruct l; discriminate | apply last_last]. Qed.

Lemma parse_spec : forall l b, l <> [] ->
  match parse_model l b with SOk t => raw_tree_ok t | SErr => True | _ => False end.
Proof. intros [|x l] b H; [congruence|]. destruct b; cbn; [right; reflexivity | exact I]. Qed.

Lemma testbit_u16 : forall x j, 0 <= x < 65536 -> j < 0 \/ 16 <= j -> Z.testbit x j = false.
Proof.
  intros x j Hx [Hj|Hj]; [apply Z.testbit_neg_r; exact Hj|].
  rewrite <- (Z.mod_small x (2 ^ 16)) by exact Hx. apply Z.mod_pow2_bits_high. lia.
Qed.

Lemma ones16 : forall n, 0 <= n -> Z.testbit 65535 n = (n <? 16).
Proof.
  intros n Hn. change 65535 with (Z.ones 16).
  destruct (n <? 16) eqn:E.
  - apply Z.ones_spec_low. lia.
  - apply Z.ones_spec_high. lia.
Qed.

Section Pos.
  Variables fi fu line col : Z.
  Hypothesis Hfi : 0 <= fi < 65536.
  Hypothesis Hfu : 0 <= fu < 65536.
  Hypothesis Hline : 0 <= line < 65536.
  Hypothesis Hcol : 0 <= col < 65536.

  Lemma pack_pos_bit : forall m, 0 <= m < 64 -> Z.testbit (pack_pos fi fu line col) m =
    (Z.testbit fi (m - 48) || Z.testbit fu (m - 32) || Z.testbit line (m - 16) || Z.testbit col m).
  Proof.
    intros m Hm. unfold pack_pos, two64. rewrite Z.mod_pow2_bits_low by lia.
    rewrite !Z.lor_spec, !Z.shiftl_spec by lia. reflexivity.
  Qed.

  (* bit n of the 16-bit field at shift sh: of the four fields only the one stored at sh has its
     window there, the other three are asked for a bit below 0 or above 15 *)
  Lemma field_bit : forall sh n, 0 <= n -> sh = 48 \/ sh = 32 ->
    Z.testbit (Z.land (Z.shiftr (pack_pos fi fu line col) sh) 65535) n =
    Z.testbit (if sh =? 48 then fi else fu) n.
  Proof.
    intros sh n Hn Hsh. rewrite Z.land_spec, Z.shiftr_spec, ones16 by lia.
    destruct (n <? 16) eqn:E.
    - rewrite pack_pos_bit, andb_true_r by lia. rewrite (testbit_u16 line), (testbit_u16 col), !orb_false_r by lia.
      destruct Hsh as [-> | ->]; cbn [Z.eqb Pos.eqb].
      + rewrite (testbit_u16 fu), orb_false_r by lia. f_equal. lia.
      + rewrite (testbit_u16 fi) by lia. cbn [orb]. f_equal. lia.
    - rewrite andb_false_r. symmetry. destruct (sh =? 48); apply testbit_u16; lia.
  Qed.

  Lemma pos_file_roundtrip : pos_file (pack_pos fi fu line col) = fi.
  Proof. apply Z.bits_inj'. intros n Hn. apply (field_bit 48); auto. Qed.

  Lemma pos_func_roundtrip : pos_func (pack_pos fi fu line col) = fu.
  Proof. apply Z.bits_inj'. intros n Hn. apply (field_bit 32); auto. Qed.
End Pos.

Lemma clamp16_spec : forall n, clamp16 n = Z.max 0 (Z.min 65535 n).
Proof. intros n. unfold clamp16. destruct (n <? 0) eqn:A; [lia|]. destruct (65535 <? n) eqn:B; lia. Qed.

(* newPos / pos.info for ARBITRARY indices, lines and columns: the fields never disturb each other *)
Lemma new_pos_file : forall fi fu line col, pos_file (new_pos fi fu line col) = clamp16 fi.
Proof. intros. unfold new_pos. apply pos_file_roundtrip; rewrite clamp16_spec; lia. Qed.
Lemma new_pos_func : forall fi fu line col, pos_func (new_pos fi fu line col) = clamp16 fu.
Proof. intros. unfold new_pos. apply pos_func_roundtrip; rewrite clamp16_spec; lia. Qed.

Lemma key_in_range_ok : forall keys idx, Forall (fun k => k <> "") keys -> 0 <= idx < Z.of_nat (List.length keys) ->
  key_tail_ok keys idx = true.
Proof.
  intros keys idx Hne Hi. unfold key_tail_ok.
  destruct (nth_error keys (Z.to_nat idx)) as [k|] eqn:E.
  - rewrite Forall_forall in Hne. specialize (Hne k (nth_error_In _ _ E)).
    destruct (String.eqb_spec k ""); [contradiction|reflexivity].
  - apply nth_error_None in E. lia.
Qed.

Lemma stamped_ok : forall keys p, keys_ok keys -> stamped keys p -> pos_string_ok keys p = true.
Proof.
  intros keys p [Hn Hne] [->|(fi & fu & line & col & -> & Hfi & Hfu)]; unfold pos_string_ok.
  - assert (H0 : 0 <= 0 < Z.of_nat (List.length keys)) by (destruct keys; [congruence|cbn [List.length]; lia]).
    change (pos_file 0) with 0. change (pos_func 0) with 0. rewrite !key_in_range_ok by assumption. reflexivity.
  - rewrite new_pos_file, new_pos_func.
    rewrite !key_in_range_ok by (assumption || (rewrite clamp16_spec; lia)). reflexivity.
Qed.

(* btErr is total: any frame.N, any code length *)
Lemma bt_err_total : forall s, vmstate_ok s -> bt_err_ok (vkeys s) (vcodes s) (vN s) (vbt s) = true.
Proof.
  intros [keys codes n bt] (Hk & Hc & Hb); cbn in *. unfold bt_err_ok. rewrite Forall_forall in Hc, Hb.
  apply andb_true_iff; split.
  - set (len := Z.of_nat (List.length codes)). set (n' := if len <=? n then len - 1 else n).
    assert (Hn' : n' < len) by (subst n'; destruct (len <=? n) eqn:E; lia).
    destruct (0 <=? n') eqn:E2; [|reflexivity].
    destruct (nth_error codes (Z.to_nat n')) as [p|] eqn:E3.
    + apply stamped_ok; [assumption|]. apply Hc. eapply nth_error_In; eauto.
    + apply nth_error_None in E3. subst len. lia.
  - apply forallb_forall. intros p Hp. destruct (p =? 0); [reflexivity|]. apply stamped_ok; auto.
Qed.

Lemma run_spec : forall b,
  match run_model b with SEscape _ => ~ run_beh_ok b | SHang => b = RHang | _ => True end.
Proof.
  intros [|s|]; cbn; auto. destruct (bt_err_ok _ _ _ _) eqn:E; [exact I|].
  intros H. rewrite bt_err_total in E by exact H. discriminate.
Qed.

Section Loader.
  Variable imports : string -> option (list string).

  Lemma discover_keeps : forall f todo d d', discover imports f todo d = Some d' ->
    todo <> [] \/ packages d <> [] -> packages d' <> [].
  Proof.
    induction f as [|f IH]; intros todo d d' H Hn; cbn in H; [discriminate|].
    destruct todo as [|pkg rest]; [inversion H; subst; destruct Hn; congruence|].
    destruct (mem pkg (map fst (packages d))) eqn:Em.
    - eapply IH; eauto. right. intros E. rewrite E in Em. discriminate.
    - destruct (imports pkg); eapply IH; eauto; right; discriminate.
  Qed.

  Lemma load_nonempty : forall b top l, load imports b top = LoadOk l -> l <> [].
  Proof.
    intros b top l H. unfold load in H.
    destruct (discover imports b [top] (mkDisc [] [])) as [d|] eqn:Ed; [|discriminate].
    apply discover_keeps in Ed; [|left; discriminate].
    assert (Hk : sort_keys (map fst (packages d)) <> []).
    { intros E. pose proof (sort_keys_perm (map fst (packages d))) as P. rewrite E in P.
      apply Permutation.Permutation_nil in P. destruct (packages d); [congruence|discriminate]. }
    destruct (sort_keys (map fst (packages d))) as [|k ks] eqn:Ek; [congruence|].
    cbn [List.length order_loop] in H.
    destruct (first_ready (k :: ks) (deps d)) as [pkg|]; [|discriminate].
    destruct (order_loop _ _ _); [|discriminate]. inversion H. discriminate.
  Qed.

  (* The discovery worklist terminates on every finite import graph: U contains top and is closed under
     imports, so it covers what is reachable from top, and C15_loader.load_spec bounds the iterations by
     2 + the import entries of the packages of U. *)
  Variable U : list string.
  Hypothesis U_closed : forall q l x, In q U -> imports q = Some l -> In x l -> In x U.

  Theorem load_no_fuel : forall top fuel, In top U -> (S (S (weight imports U)) <= fuel)%nat ->
    load imports fuel top <> LoadFuel.
  Proof.
    intros top fuel Hin Hf E.
    assert (HU : universe_ok imports U top).
    { intros p R. induction R as [|p q _ IH (l & Hl & Hq)]; [exact Hin|exact (U_closed p l q IH Hl Hq)]. }
    pose proof (load_spec imports U top fuel HU Hf) as S. rewrite E in S. exact S.
  Qed.
End Loader.

Lemma split_last_some : forall A (l : list A), l <> [] -> exists a b, split_last l = Some (a, b) /\ In b l.
Proof.
  intros A l H. unfold split_last. destruct (rev l) as [|x r] eqn:E.
  - apply (f_equal (@rev A)) in E. rewrite rev_involutive in E. cbn in E. congruence.
  - exists (rev r), x. split; [reflexivity|]. apply in_rev. rewrite E. left; reflexivity.
Qed.

Lemma length_append : forall a b, String.length (a ++ b) = (String.length a + String.length b)%nat.
Proof. induction a as [|c a IH]; intros b; cbn; [reflexivity|]. rewrite IH. reflexivity. Qed.

(* a node with children renders as "(" text " " ... ")": at least 3 + |text| bytes, whatever the children are
   (nil children print "<nil>") *)
Lemma dump_node_ok : forall sy tx kids, kids <> [] -> (1 <= String.length tx)%nat -> dump_one_ok (TNode sy tx kids) = true.
Proof.
  intros sy tx kids Hk Ht. unfold dump_one_ok. destruct kids as [|k ks]; [congruence|].
  apply Nat.leb_le. cbn [tstr append String.length]. repeat (rewrite length_append; cbn [String.length]). lia.
Qed.

Lemma synthetic_ok : forall pkg, dump_one_ok (synthetic pkg) = true.
Proof. intros pkg. unfold synthetic. apply dump_node_ok; [discriminate|cbn; lia]. Qed.

Lemma fix_empty_ok : forall pkg t, raw_tree_ok t -> dump_one_ok (fix_empty pkg t) = true.
Proof.
  intros pkg t [H|Ht]; unfold fix_empty.
  - rewrite H. apply synthetic_ok.
  - destruct t as [|sy tx kids]; [apply synthetic_ok|]. cbn in Ht; subst tx. cbn [kids_of].
    destruct kids as [|k ks]; [apply synthetic_ok|]. apply dump_node_ok; [discriminate|cbn; lia].
Qed.

Lemma comp_spec : forall dump b,
  match compile_model b with
  | SOk kc => comp_beh_ok dump b -> code_dump_ok dump (fst kc) (snd kc) = true
  | SErr => True
  | _ => False
  end.
Proof.
  intros dump [keys code|c]; cbn; [|exact I]. unfold code_dump_ok. destruct dump; [|reflexivity].
  intros H. destruct (H eq_refl) as [Hk Hcode].
  apply forallb_forall. intros i Hi. rewrite Forall_forall in Hcode. destruct (Hcode i Hi) as [Hs Hkk].
  unfold dins_ok. rewrite (stamped_ok _ _ Hk Hs), Hkk. reflexivity.
Qed.

Lemma tree_dump_incl : forall on l l', forallb dump_one_ok l = true -> incl l' l -> tree_dump_ok on l' = true.
Proof. intros [|] l l' H Hi; [|reflexivity]. cbn. rewrite forallb_forall in *. auto. Qed.

(* Func and Call: the slice expression and the handler lie inside the deferred recover *)
Lemma func_spec : forall x b,
  match func_model x b with
  | Ok => True
  | Err p => p = ""
  | Escape _ => ~ func_beh_ok b
  | Hang s => s = SRun /\ b = FnHang
  end.
Proof.
  intros x [len keys|s|]; cbn; [destruct (_ && _); [exact I|]| |auto].
  - destruct (bt_err_ok _ _ _ _) eqn:E; [reflexivity|]. intros H.
    assert (S : vmstate_ok (mkVmstate keys [0] 1 [])).
    { split; [exact H|]. split; [|constructor]. constructor; [left; reflexivity|constructor]. }
    apply bt_err_total in S. cbn in S. congruence.
  - destruct (bt_err_ok _ _ _ _) eqn:E; [reflexivity|]. intros H. rewrite bt_err_total in E by exact H. discriminate.
Qed.

Section Contain.
  Variable unq : string -> bool.

  (* the last step of loadImports, for the loader of Model/Loader.v on any graph and budget; Q is whatever
     the caller can say when the budget runs out *)
  Lemma finish_spec : forall topPkg top raw imports b (Q : Prop),
    (forall p, raw_tree_ok (raw p)) -> (load imports b topPkg = LoadFuel -> Q) ->
    match match load imports b topPkg with
          | LoadOk order => SOk (map (fun p => fix_empty p (if String.eqb p topPkg then top else raw p)) order)
          | LoadCycle => SErr | LoadFuel => SHang end with
    | SOk pkgs => raw_tree_ok top -> pkgs <> [] /\ forallb dump_one_ok pkgs = true
    | SErr => True
    | SEscape _ => False
    | SHang => Q
    end.
  Proof.
    intros topPkg top raw imports b Q Hraw HQ. pose proof (load_nonempty imports b topPkg) as Hne.
    destruct (load imports b topPkg) as [order| |]; [|exact I|auto]. intros Ht. split.
    - destruct order; [destruct (Hne _ eq_refl eq_refl)|discriminate].
    - apply forallb_forall. intros t Hin. apply in_map_iff in Hin as (q & <- & _). apply fix_empty_ok.
      destruct (String.eqb q topPkg); [assumption|apply Hraw].
  Qed.

  (* loadImports never lets a panic escape (its deferred recover) and hands on printable trees.  It hangs only
     when the discovery worklist of Model/Loader.v runs out of the budget it was handed, while reading imported
     packages from a non-nil file system.  The budget is part of the adversary's files_beh: nothing here says it
     is large enough.  load_no_fuel gives the budget that suffices on a graph whose reachable part is finite. *)
  Lemma load_imports_spec : forall nilfs topPkg top fb,
    match load_imports_model unq nilfs topPkg top fb with
    | SOk pkgs => raw_tree_ok top -> pkgs <> [] /\ forallb dump_one_ok pkgs = true
    | SErr => True
    | SEscape _ => False
    | SHang => exists p ps imports nodes budget, nilfs = false /\ top_imports unq (kids_of top) = Some (p :: ps) /\
        fb = FRet imports nodes budget /\
        load (fun q => if String.eqb q topPkg then Some (p :: ps) else imports q) budget topPkg = LoadFuel
    end.
  Proof.
    intros nilfs topPkg top fb. unfold load_imports_model.
    destruct (top_imports unq (kids_of top)) as [paths|]; [|exact I]. cbv beta zeta.
    destruct (nilfs || match paths with [] => true | _ :: _ => false end) eqn:Eb.
    - apply finish_spec; [left; reflexivity|]. intros E. exfalso. revert E.
      apply (load_no_fuel _ (topPkg :: paths)); [|left; reflexivity|apply le_n].
      intros q l x _ Hl Hx. destruct (String.eqb q topPkg); [|discriminate]. inversion Hl; subst. right. exact Hx.
    - apply orb_false_iff in Eb as [-> Ep]. destruct paths as [|p ps]; [discriminate|].
      destruct fb as [imports nodes budget| |]; try exact I.
      apply finish_spec; [right; reflexivity|]. intros E. exists p, ps, imports, nodes, budget. auto.
  Qed.

  Definition is_escape (o : outcome) : Prop := exists w, o = Escape w.

  (* what is assumed about the stage bodies in an Eval: nothing about the loader, the parser or the trees *)
  Record eval_hyps (o : options) (a : eval_adv) : Prop := {
    eh_scan : ea_scan a <> ScanPanic;
    eh_rimp : run_beh_ok (ea_rimp a);
    eh_comp : comp_beh_ok (code_dump o) (ea_comp a);
    eh_run : run_beh_ok (ea_run a) }.

  Record load_hyps (o : options) (a : load_adv) : Prop := {
    lh_comp : comp_beh_ok (code_dump o) (la_comp a);
    lh_run : run_beh_ok (la_run a) }.

  Definition entry_hyps (e : entry) : Prop :=
    match e with
    | EEval _ o a => eval_hyps o a
    | ELoad _ _ o a => load_hyps o a
    | ECall _ b | EFunc _ b => func_beh_ok b
    end.

  Definition eval_prefixes : list (string * stage) :=
    [("error in tokenize: ", STokenize); ("error in parse: ", SParse); ("error in loadImports: ", SLoad);
     ("error in compile (imports): ", SCompile); ("error in run (imports): ", SRun);
     ("error in compile: ", SCompile); ("error in run: ", SRun)].
  Definition load_prefixes : list (string * stage) :=
    [("error in load: ", SLoad); ("error in compile: ", SCompile); ("error in run: ", SRun)].

  (* what each outcome of an entry point says about the entry that produced it *)
  Definition entry_post (e : entry) (out : outcome) : Prop :=
    match out with
    | Ok => True
    | Err p => match e with
               | EEval _ _ _ => exists st, In (p, st) eval_prefixes
               | ELoad _ _ _ _ => exists st, In (p, st) load_prefixes
               | _ => p = ""
               end
    | Escape _ => ~ entry_hyps e
    | Hang s =>
        (s = SRun /\ match e with
                     | EEval _ _ a => ea_rimp a = RHang \/ ea_run a = RHang
                     | ELoad _ _ _ a => la_run a = RHang
                     | ECall _ b | EFunc _ b => b = FnHang
                     end) \/
        (s = SLoad /\ match e with
           | EEval n _ a => exists toks tree, tokenize_model (ea_scan a) = SOk toks /\ parse_model toks (ea_parse a) = SOk tree /\
                              load_imports_model unq n "" tree (ea_files a) = SHang
           | ELoad n p _ a => exists nodes, la_top a = TopRet nodes /\
                              load_imports_model unq n p (TNode "_" "_" nodes) (la_files a) = SHang
           | _ => False
           end)
    end.

  (* an error prefix of the chain is in the list of its entry point *)
  Local Ltac prefix := eexists; cbn; eauto 9.

  (* One walk along each chain of stages: a stage is split by its result, the three results that end the chain
     are settled on the spot from what the stage's *_spec says of them, and the walk goes on with SOk. *)
  Theorem entry_outcome : forall e, entry_post e (entry_model unq e).
  Proof.
    intros [n o a|n p o a|x b|x b]; cbn [entry_model].
    - unfold eval_model.
      pose proof (tokenize_spec (ea_scan a)) as Ht.
      destruct (tokenize_model (ea_scan a)) as [toks| |w|] eqn:Et; cbn [bind entry_post];
        [|prefix|intros H; exact (eh_scan _ _ H Ht)|destruct Ht].
      pose proof (parse_spec toks (ea_parse a) (proj1 Ht)) as Hp.
      destruct (parse_model toks (ea_parse a)) as [tree| |w|] eqn:Ep; cbn [bind entry_post]; [|prefix|destruct Hp..].
      pose proof (load_imports_spec n "" tree (ea_files a)) as Hl.
      destruct (load_imports_model unq n "" tree (ea_files a)) as [pkgs| |w|] eqn:El; cbn [bind entry_post];
        [|prefix|destruct Hl|right; eauto 6].
      destruct (Hl Hp) as [Hne Hd]. destruct (split_last_some _ _ Hne) as (imps & top & -> & Hin).
      destruct (ea_cimp a) as [k0 c0|c0]; cbn [compile_model bind entry_post]; [|prefix].
      pose proof (run_spec (ea_rimp a)) as Hri.
      destruct (run_model (ea_rimp a)) as [u| |w|]; cbn [bind entry_post];
        [|prefix|intros H; exact (Hri (eh_rimp _ _ H))|auto].
      rewrite (tree_dump_incl _ pkgs [top] Hd) by (intros t [<-|[]]; exact Hin). cbn [negb].
      pose proof (comp_spec (code_dump o) (ea_comp a)) as Hc.
      destruct (compile_model (ea_comp a)) as [kc| |w|]; cbn [bind entry_post]; [|prefix|destruct Hc..].
      destruct (code_dump_ok (code_dump o) (fst kc) (snd kc)); cbn [negb entry_post];
        [|intros H; discriminate (Hc (eh_comp _ _ H))].
      pose proof (run_spec (ea_run a)) as Hr.
      destruct (run_model (ea_run a)) as [u'| |w|]; cbn [bind entry_post];
        [exact I|prefix|intros H; exact (Hr (eh_run _ _ H))|auto].
    - unfold load_model. destruct (la_top a) as [nodes| |] eqn:Et; cbn [entry_post]; [|prefix..]. cbv zeta.
      pose proof (load_imports_spec n p (TNode "_" "_" nodes) (la_files a)) as Hl.
      destruct (load_imports_model unq n p (TNode "_" "_" nodes) (la_files a)) as [pkgs| |w|] eqn:El; cbn [bind entry_post];
        [|prefix|destruct Hl|right; eauto].
      destruct (Hl (or_intror eq_refl)) as [_ Hd]. rewrite (tree_dump_incl _ pkgs pkgs Hd (incl_refl _)). cbn [negb].
      pose proof (comp_spec (code_dump o) (la_comp a)) as Hc.
      destruct (compile_model (la_comp a)) as [kc| |w|]; cbn [bind entry_post]; [|prefix|destruct Hc..].
      destruct (code_dump_ok (code_dump o) (fst kc) (snd kc)); cbn [negb entry_post];
        [|intros H; discriminate (Hc (lh_comp _ _ H))].
      pose proof (run_spec (la_run a)) as Hr.
      destruct (run_model (la_run a)) as [u'| |w|]; cbn [bind entry_post];
        [|prefix|intros H; exact (Hr (lh_run _ _ H))|auto].
      destruct (la_rets a); cbn [entry_post]; [exact I|prefix].
    - pose proof (func_spec x b) as S. unfold call_model. destruct (func_model x b); cbn; auto.
    - pose proof (func_spec x b) as S. destruct (func_model x b); cbn; auto.
  Qed.

  Theorem contain : forall e, entry_hyps e -> ~ is_escape (entry_model unq e).
  Proof. intros e H [w E]. pose proof (entry_outcome e) as S. rewrite E in S. exact (S H). Qed.
End Contain.
