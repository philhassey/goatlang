(* C07, the dispatch loop and the calls: by induction on the fuel, exec of checked code ends at the static exit depth
   (res_ok) and call_fn pops the arguments and pushes the requested results (cres_ok), each using the other at the
   smaller fuel (sound_fuel); one instruction is Proofs/C07_step.v, the part of a call before its body
   Proofs/C09_call.v. *)
From Coq Require Import ZArith List String Bool Lia ZifyBool.
From GV Require Import GoSpec.GoPrim Gen.ValueOps_gen Gen.Tables_gen Model.VM Model.StackCheck Proofs.VM_step Proofs.C07_step Proofs.C09_call.
Import ListNotations.
Open Scope Z_scope.

Section Sound.
  Variable grow : Z -> Z -> Z.
  Variable ext_get : st -> value -> value -> option (res value).
  Variable ext_set : st -> value -> value -> value -> option (res st).
  Variable ext_len : st -> value -> option Z.
  Variable ext_getattr : st -> value -> Z -> option (res (value * st)).
  Variable ext_setattr : st -> value -> Z -> value -> option (res st).
  Variable ng : Z.
  Hypothesis ext_set_ok : forall s r k v s', st_ok ng s -> ext_set s r k v = Some (Ok s') -> st_ok ng s'.
  Hypothesis ext_getattr_ok : forall s r k v s', st_ok ng s -> ext_getattr s r k = Some (Ok (v, s')) -> st_ok ng s'.
  Hypothesis ext_setattr_ok : forall s r k v s', st_ok ng s -> ext_setattr s r k v = Some (Ok s') -> st_ok ng s'.

  Notation exec := (VM.exec grow ext_get ext_set ext_len ext_getattr ext_setattr).
  Notation call_fn := (VM.call_fn grow ext_get ext_set ext_len ext_getattr ext_setattr).
  Notation step1 := (VM.step1 grow ext_get ext_set ext_len ext_getattr ext_setattr).
  Notation run := (VM.run grow ext_get ext_set ext_len ext_getattr ext_setattr).
  Notation exec_S := (exec_S grow ext_get ext_set ext_len ext_getattr ext_setattr).
  Notation call_fn_pre := (call_fn_pre grow ext_get ext_set ext_len ext_getattr ext_setattr).

  Definition chk_of (fc : nat) : Z -> Z -> list instr -> bool :=
    fun slots rets body => check_code_f fc ng slots (Some rets) body.
  Definition verified (fc : nat) (ns : Z) (final : option Z) (codes : list instr) (m : dmap) : Prop :=
    verify (chk_of fc) ng ns final codes m = true.

  Lemma check_code_f_verified fuel ns final codes :
    check_code_f fuel ng ns final codes = true -> exists fc, verified fc ns final codes (infer_map codes).
  Proof. destruct fuel as [|fc]; [discriminate|]. intro H. exists fc. exact H. Qed.

  Lemma verified_spec fc ns final codes m : verified fc ns final codes m ->
    (0 <= ns /\ at_depth codes m 0 0) /\
    (forall d, dget m (zlen codes) = Some d -> final_ok final d = true) /\
    (forall pc i d, znth codes pc = Some i -> dget m pc = Some d ->
       check_instr (chk_of fc) ng ns final codes (zlen codes) m pc i d = true).
  Proof.
    unfold verified, verify. intro H. repeat (apply andb_true_iff in H; destruct H as [H ?]).
    split; [|split].
    - destruct (dget m 0) as [d0|] eqn:D; [|discriminate]. pose proof (zlen_nonneg codes).
      unfold at_depth. rewrite D. repeat split; try lia. f_equal; lia.
    - intros d D. now rewrite D in *.
    - intros pc i d N D. pose proof (znth_Some _ _ _ N) as R. rewrite znth_nth_error in N by lia.
      match goal with V : verify_from _ _ _ = true |- _ => pose proof (verify_from_spec _ _ _ V _ _ N) as K end.
      unfold check_at in K. replace (0 + Z.of_nat (Z.to_nat pc)) with pc in K by lia. now rewrite D in K.
  Qed.
  Lemma chk_of_sound fc ns nr b : chk_of fc ns nr b = true -> exists fuel, check_code_f fuel ng ns (Some nr) b = true.
  Proof. intro H. exists fc. exact H. Qed.

  Definition res_ok (ns : Z) (final : option Z) (codes : list instr) (m : dmap) (r : result) : Prop :=
    match r with
    | RDone sl ops s =>
        zlen sl = ns /\ final_ok final (zlen ops) = true /\ st_ok ng s /\
        exists pcx, 0 <= pcx <= zlen codes /\ is_exit codes pcx /\ dget m pcx = Some (zlen ops)
    | RStuck w => heap_reason w
    | _ => True
    end.
  (* a call: on success the operands are the requested results on top of the caller's operands minus the arguments *)
  Definition cres_ok (ops : list value) (xa xr : Z) (c : cres) : Prop :=
    match c with
    | COk ops' s' => st_ok ng s' /\ exists results, zlen results = xr /\ ops' = (results ++ skipn (Z.to_nat xa) ops)%list
    | CErr (RDone _ _ _) => False
    | CErr (RStuck w) => heap_reason w
    | CErr _ => True
    end.

  Lemma sound_exec_step f :
    (forall fc ns final codes m pc slots ops s,
        verified fc ns final codes m -> at_depth codes m pc (zlen ops) -> zlen slots = ns -> st_ok ng s ->
        res_ok ns final codes m (exec f codes pc slots ops s)) ->
    (forall pack fa xa xr pos ops s, st_ok ng s -> 0 <= xa <= zlen ops -> 0 <= xr ->
        cres_ok ops xa xr (call_fn f pack fa xa xr pos ops s)) ->
    forall fc ns final codes m pc slots ops s,
        verified fc ns final codes m -> at_depth codes m pc (zlen ops) -> zlen slots = ns -> st_ok ng s ->
        res_ok ns final codes m (exec (S f) codes pc slots ops s).
  Proof.
    intros IHe IHc fc ns final codes m pc slots ops s V (Hpc & Hd0 & Hd) Hsl Hst.
    rewrite exec_S. destruct (znth codes pc) as [i|] eqn:N.
    - pose proof (proj2 (proj2 (verified_spec _ _ _ _ _ V)) _ _ _ N Hd) as CI.
      pose proof (step_sound grow ext_get ext_set ext_len ext_getattr ext_setattr ng ext_set_ok ext_getattr_ok ext_setattr_ok
                    (chk_of fc) (chk_of_sound fc) ns final codes m pc i slots ops s Hsl Hst (proj1 Hpc) CI) as SP.
      destruct (step1 codes pc i slots ops s) as [sl' o' s'|dl sl' o' s'|pack fa xa xr sl' o' s'|sl' o' s'|msg s'|w|w];
        cbn [step_post] in SP.
      + destruct SP as (A & B & C). apply (IHe fc); auto.
      + destruct SP as (A & B & C). apply (IHe fc); auto.
      + destruct SP as (A & B & C & D & F).
        pose proof (IHc pack fa xa xr (ipos i) o' s' B C D) as K.
        destruct (call_fn f pack fa xa xr (ipos i) o' s') as [o'' s''|r]; cbn [cres_ok] in K.
        * destruct K as (K1 & results & K2 & ->). apply (IHe fc); auto.
          eapply at_depth_eq; [exact F|]. rewrite zlen_app, zlen_skipn. lia.
        * destruct r; cbn [res_ok]; auto; contradiction.
      + destruct SP as (A & B & C & D0 & D). cbn [res_ok]. split; [exact A|]. split; [exact D|]. split; [exact B|].
        exists pc. split; [lia|]. split; [right; eauto | rewrite D0; exact Hd].
      + exact I.
      + exact SP.
      + exact I.
    - cbn [res_ok]. assert (pc = zlen codes) by (apply znth_none in N; lia). subst pc.
      split; [exact Hsl|]. split; [exact (proj1 (proj2 (verified_spec _ _ _ _ _ V)) _ Hd)|]. split; [exact Hst|].
      exists (zlen codes). split; [lia|]. split; [left; exact N | exact Hd].
  Qed.

  (* A call.  Before the body (call_pre): the invariant gives the object called a checked body and, if
     variadic, a parameter for the surplus arguments, so with xa operands present nothing is stuck and exactly
     xa operands go.  The body is checked code in a frame of its own: by the hypothesis on [exec f] it ends
     with exactly nrets operands, of which [finish] hands xr to the caller. *)
  Lemma sound_call_step f :
    (forall fc ns final codes m pc slots ops s,
        verified fc ns final codes m -> at_depth codes m pc (zlen ops) -> zlen slots = ns -> st_ok ng s ->
        res_ok ns final codes m (exec f codes pc slots ops s)) ->
    forall pack fa xa xr pos ops s, st_ok ng s -> 0 <= xa <= zlen ops -> 0 <= xr ->
      cres_ok ops xa xr (call_fn (S f) pack fa xa xr pos ops s).
  Proof.
    intros IHe pack fa xa xr pos ops s Hst Hxa Hxr. rewrite call_fn_pre.
    pose proof (fun o => heap_ok_get ng s fa o Hst) as Hobj.
    pose proof (call_pre_st (st_ok ng) pack fa xa xr pos ops s Hst (fun l => st_ok_emit ng s l Hst)
                  (fun t n v => st_ok_variadic_arg ng s t n v Hst)) as S.
    assert (P : forall nargs nrets vtype nslots types body,
                  hget s fa = Some (HFunc nargs nrets true vtype nslots types body) -> 1 <= nargs)
      by (intros * H; apply Hobj in H; cbn in H; tauto).
    apply (call_pre_pops pack fa xa xr pos ops s Hxa) in P.
    destruct (call_pre pack fa xa xr pos ops s) as [[o s'|r]|[e rest]] eqn:E.
    - destruct P as [-> Hx]. split; [exact S|]. exists []. split; [rewrite zlen_nil; lia | reflexivity].
    - destruct r; try exact I; [|contradiction]. exact (proj2 (call_pre_err _ _ _ _ _ _ _ _ E) _ _ _ eq_refl).
    - destruct P as [-> La]. destruct (call_pre_obj _ _ _ _ _ _ _ _ _ E) as (variadic & vtype & Hh).
      apply Hobj in Hh. destruct Hh as (Hna & Hnr & Hty & _ & fuel & Hchk).
      apply check_code_f_verified in Hchk. destruct Hchk as (fc & V).
      pose proof (IHe fc _ _ _ _ 0 (entry_slots (e_args e) (e_types e) (e_nslots e) (e_nargs e)) [] (push_bt (e_st e) pos)
                    V (proj2 (proj1 (verified_spec _ _ _ _ _ V)))) as K.
      rewrite zlen_entry_slots in K by lia. specialize (K eq_refl (st_ok_push_bt ng _ pos S)).
      destruct (exec f _ _ _ _ _) as [sl rops s2|msg p s2|w| |w]; try exact K.
      destruct K as (_ & Hfin & Hs2 & _). apply Z.eqb_eq in Hfin.
      pose proof (finish_done (e_nargs e) (e_nrets e) xr pos (e_types e) (skipn (Z.to_nat xa) ops) sl rops s2) as D.
      destruct (finish _ _ _ _ _ _ _) as [o s'|r] eqn:F.
      + subst s'. split; [apply st_ok_pop_bt, Hs2|].
        destruct (finish_aligned _ _ _ _ _ _ _ _ _ (conj (proj1 Hna) (conj Hnr Hty)) Hxr F) as (res & -> & L). eauto.
      + destruct r; try exact I; contradiction.
  Qed.

  Lemma sound_fuel : forall f,
    (forall fc ns final codes m pc slots ops s,
        verified fc ns final codes m -> at_depth codes m pc (zlen ops) -> zlen slots = ns -> st_ok ng s ->
        res_ok ns final codes m (exec f codes pc slots ops s)) /\
    (forall pack fa xa xr pos ops s, st_ok ng s -> 0 <= xa <= zlen ops -> 0 <= xr ->
        cres_ok ops xa xr (call_fn f pack fa xa xr pos ops s)).
  Proof.
    induction f as [|f [IHe IHc]].
    - split; intros; exact I.
    - split.
      + apply sound_exec_step; assumption.
      + apply sound_call_step; assumption.
  Qed.

  Lemma checked_run ns final codes fuel slots s :
    check_code ng ns final codes = true -> zlen slots = ns -> st_ok ng s ->
    res_ok ns final codes (infer_map codes) (exec fuel codes 0 slots [] s).
  Proof.
    intros C Hsl Hst. apply check_code_f_verified in C. destruct C as (fc & V).
    apply (proj1 (sound_fuel fuel) fc); auto. apply (verified_spec _ _ _ _ _ V).
  Qed.

  (* checked code is never stuck on an operand, slot, global or code-shape access -- in its own frame or,
     through call_fn, in any callee frame *)
  Theorem checked_not_stuck : forall ns final codes fuel slots s w,
    check_code ng ns final codes = true -> zlen slots = ns -> st_ok ng s ->
    exec fuel codes 0 slots [] s = RStuck w -> heap_reason w.
  Proof.
    intros ns final codes fuel slots s w C Hsl Hst E.
    pose proof (checked_run ns final codes fuel slots s C Hsl Hst) as K. rewrite E in K. exact K.
  Qed.

  (* every completed run leaves the static exit depth on the operand stack and keeps the frame's slot count *)
  Theorem checked_exit_depth : forall ns final codes fuel slots s slots' ops' s',
    check_code ng ns final codes = true -> zlen slots = ns -> st_ok ng s ->
    exec fuel codes 0 slots [] s = RDone slots' ops' s' ->
    zlen slots' = ns /\ st_ok ng s' /\ (forall n, final = Some n -> zlen ops' = n) /\
    exists pcx, 0 <= pcx <= zlen codes /\ is_exit codes pcx /\ depth_at codes pcx = Some (zlen ops').
  Proof.
    intros ns final codes fuel slots s slots' ops' s' C Hsl Hst E.
    pose proof (checked_run ns final codes fuel slots s C Hsl Hst) as K. rewrite E in K.
    destruct K as (A & B & D & F). split; [exact A|]. split; [exact D|]. split; [|exact F].
    intros n ->. cbn [final_ok] in B. lia.
  Qed.

  Theorem checked_run_empty : forall ns codes fuel s,
    check_code ng ns (Some 0) codes = true -> st_ok ng s ->
    match run fuel codes ns s with
    | RDone slots' ops' s' => ops' = [] /\ zlen slots' = ns /\ st_ok ng s'
    | RStuck w => heap_reason w
    | _ => True
    end.
  Proof.
    intros ns codes fuel s C Hst. unfold VM.run.
    assert (Hns : 0 <= ns).
    { apply check_code_f_verified in C. destruct C as (fc & V). apply verified_spec in V. tauto. }
    assert (Hsl : zlen (repeat nilV (Z.to_nat ns)) = ns) by (rewrite zlen_repeat; lia).
    pose proof (checked_run ns (Some 0) codes fuel _ s C Hsl Hst) as K.
    destruct (exec fuel codes 0 (repeat nilV (Z.to_nat ns)) [] s); auto.
    destruct K as (A & B & D & _). cbn [final_ok] in B. split; [|auto].
    destruct ops; [reflexivity|]. rewrite zlen_cons in B. pose proof (zlen_nonneg ops). lia.
  Qed.

  (* frames are isolated: a call that returns has popped exactly its arguments and pushed exactly the
     requested results; nothing else of the caller's operands changed (the caller's slots are not even
     passed to call_fn); a call that does not return is not stuck on a stack access either *)
  Theorem call_frame_isolated : forall fuel pack fa xa xr pos ops s,
    st_ok ng s -> 0 <= xa <= zlen ops -> 0 <= xr ->
    match call_fn fuel pack fa xa xr pos ops s with
    | COk ops' s' => st_ok ng s' /\ exists results, zlen results = xr /\ ops' = (results ++ skipn (Z.to_nat xa) ops)%list
    | CErr (RStuck w) => heap_reason w
    | CErr _ => True
    end.
  Proof.
    intros fuel pack fa xa xr pos ops s Hst Hxa Hxr.
    pose proof (proj2 (sound_fuel fuel) pack fa xa xr pos ops s Hst Hxa Hxr) as K.
    destruct (call_fn fuel pack fa xa xr pos ops s) as [o' s'|r]; [exact K|].
    destruct r; cbn [cres_ok] in K; auto; contradiction.
  Qed.
End Sound.

(* a heap that holds only native functions (the state before any code ran) satisfies the invariant *)
Lemma st_ok_natives ng s :
  ng <= zlen (globals s) -> Forall (fun o => match o with HFunc _ _ _ _ _ _ _ => False | _ => True end) (heap s) -> st_ok ng s.
Proof.
  intros H F. split; [exact H|]. unfold heap_ok. eapply Forall_impl; [|exact F].
  intros o Ho. destruct o; cbn; auto. contradiction.
Qed.
