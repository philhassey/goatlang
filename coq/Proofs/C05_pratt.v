(* C05: soundness and completeness of the Pratt expression core with respect to
   the declarative grouping specification GoPrec.grouped, for any binding-power table that meets the section
   hypotheses; grouped_iso carries `grouped` along an order isomorphism of precedences. *)
From Coq Require Import ZArith List String Bool Lia.
From GV Require Import GoSpec.GoPrec Model.Pratt.
Import ListNotations.
Open Scope string_scope.
Open Scope Z_scope.

Fixpoint ops_ok (P : string -> bool) (t : tree) : bool :=
  match t with
  | Atom _ _ => true
  | Paren t => ops_ok P t
  | Un _ t => ops_ok P t
  | Bin op l r => P op && ops_ok P l && ops_ok P r
  end.

Lemma ops_ok_Bin P op l r :
  ops_ok P (Bin op l r) = true <-> P op = true /\ ops_ok P l = true /\ ops_ok P r = true.
Proof. cbn [ops_ok]. rewrite !andb_true_iff. tauto. Qed.

Lemma ops_ok_root P f t p :
  ops_ok P t = true -> root_prec f t = Some p -> exists op, p = f op /\ P op = true.
Proof.
  destruct t as [|op l r| |]; try discriminate. intros Ho [= <-].
  apply ops_ok_Bin in Ho. exists op. tauto.
Qed.

Lemma ops_ok_impl (P Q : string -> bool) :
  (forall s, P s = true -> Q s = true) -> forall t, ops_ok P t = true -> ops_ok Q t = true.
Proof.
  intros H. induction t as [|op l IHl r IHr| |]; try assumption; [reflexivity|].
  rewrite !ops_ok_Bin. intuition.
Qed.

Lemma not_bin_root f e : is_bin e = false -> root_prec f e = None.
Proof. destruct e; [reflexivity|discriminate|reflexivity..]. Qed.

Lemma grouped_root_pos prec t p : grouped prec t -> root_prec prec t = Some p -> 0 < p.
Proof. destruct t; try discriminate. intros (H & _) [= <-]. exact H. Qed.

Lemma root_prec_iso (p q : string -> Z) P (Rp Rq : Z -> Prop) t :
  ops_ok P t = true -> (forall op, P op = true -> (Rp (p op) <-> Rq (q op))) ->
  ((forall x, root_prec p t = Some x -> Rp x) <-> (forall x, root_prec q t = Some x -> Rq x)).
Proof.
  intros Ho H. destruct t as [|op l r| |]; try solve [split; intros _ x [=]].
  apply ops_ok_Bin in Ho. destruct Ho as (Hop & _). specialize (H op Hop).
  split; intros H' x [= <-]; apply H, H', eq_refl.
Qed.

Section Generic.
  Variable lbp : string -> Z.
  Variable infix : string -> bool.
  Variables neg_rbp compl_rbp not_rbp paren_rbp : Z.

  Hypothesis infix_pos : forall s, infix s = true -> 0 < lbp s.
  Hypothesis infix_paren : forall s, infix s = true -> paren_rbp < lbp s.
  Hypothesis infix_un : forall s, infix s = true -> lbp s <= neg_rbp /\ lbp s <= compl_rbp /\ lbp s <= not_rbp.
  Hypothesis close_lbp : lbp ")" = 0.
  Hypothesis paren_nonneg : 0 <= paren_rbp.
  (* Needed by pratt_complete only (a decidable table fact; in the goatlang table
     all three unary operand binding powers are 130).
     Without it pratt_complete is false: take infix = fun _ => false,
     lbp = fun _ => 0, paren_rbp = 0, neg_rbp = -1; every hypothesis above holds
     (the infix_* ones vacuously), t = Paren (Un UNeg (Atom true "a")) is grouped,
     but after the operand "a" the loop of doExpression(-1) sees ")" with
     -1 < lbp ")" = 0, enters the led branch and fails with PErrSyntax. *)
  Hypothesis un_nonneg : 0 <= neg_rbp /\ 0 <= compl_rbp /\ 0 <= not_rbp.

  Let expr := Pratt.expr lbp infix neg_rbp compl_rbp not_rbp paren_rbp.
  Let led_loop := Pratt.led_loop lbp infix neg_rbp compl_rbp not_rbp paren_rbp.
  Let parse := Pratt.parse lbp infix neg_rbp compl_rbp not_rbp paren_rbp.

  Definition nud (fuel : nat) (ts : list tok) : (tree * list tok) + perr :=
    match ts with
    | [] => inr PErrSyntax
    | TAtom i s :: rest => inl (Atom i s, rest)
    | TSym s :: rest =>
        if String.eqb s "(" then
          match expr fuel paren_rbp rest with
          | inl (e, TSym c :: rest') => if String.eqb c ")" then inl (Paren e, rest') else inr PErrSyntax
          | inl _ => inr PErrSyntax
          | inr e => inr e
          end
        else if String.eqb s "-" then
          match expr fuel neg_rbp rest with inl (e, r) => inl (Un UNeg e, r) | inr e => inr e end
        else if String.eqb s "^" then
          match expr fuel compl_rbp rest with inl (e, r) => inl (Un UCompl e, r) | inr e => inr e end
        else if String.eqb s "!" then
          match expr fuel not_rbp rest with inl (e, r) => inl (Un UNot e, r) | inr e => inr e end
        else inr PErrSyntax
    end.

  Lemma expr_O : forall rbp ts, expr O rbp ts = inr PErrFuel.
  Proof. reflexivity. Qed.

  Lemma expr_S : forall fuel rbp ts,
    expr (S fuel) rbp ts =
    match nud fuel ts with
    | inr e => inr e
    | inl (lft, rest) => led_loop fuel rbp lft rest
    end.
  Proof. reflexivity. Qed.

  Lemma led_O : forall rbp lft ts,
    led_loop O rbp lft ts = if rbp <? cur_lbp lbp ts then inr PErrFuel else inl (lft, ts).
  Proof. reflexivity. Qed.

  Lemma led_S : forall fuel rbp lft ts,
    led_loop (S fuel) rbp lft ts =
    match ts with
    | TSym s :: rest =>
        if rbp <? lbp s then
          if infix s then
            match expr fuel (lbp s) rest with
            | inl (rgt, rest') => led_loop fuel rbp (Bin s lft rgt) rest'
            | inr e => inr e
            end
          else inr PErrSyntax
        else inl (lft, ts)
    | _ => inl (lft, ts)
    end.
  Proof. reflexivity. Qed.

  Definition un_rbp (u : unop) : Z :=
    match u with UNeg => neg_rbp | UCompl => compl_rbp | UNot => not_rbp end.

  Lemma nud_un : forall fuel u rest,
    nud fuel (TSym (unop_sym u) :: rest) =
    match expr fuel (un_rbp u) rest with inl (e, r) => inl (Un u e, r) | inr e => inr e end.
  Proof. intros fuel u rest. destruct u; reflexivity. Qed.

  Lemma nud_paren : forall fuel rest,
    nud fuel (TSym "(" :: rest) =
    match expr fuel paren_rbp rest with
    | inl (e, TSym c :: rest') => if String.eqb c ")" then inl (Paren e, rest') else inr PErrSyntax
    | inl _ => inr PErrSyntax
    | inr e => inr e
    end.
  Proof. reflexivity. Qed.

  Lemma infix_un_rbp : forall u s, infix s = true -> lbp s <= un_rbp u.
  Proof.
    intros u s Hs. destruct (infix_un s Hs) as (H1 & H2 & H3).
    destruct u; simpl; assumption.
  Qed.

  (* The loop of doExpression(b) would stop at ts.  Soundness is stated with this rather than
     with cur_lbp, so that it needs no sign condition on the binding powers. *)
  Definition head_le (b : Z) (ts : list tok) : Prop :=
    forall s tl, ts = TSym s :: tl -> lbp s <= b.

  Lemma nud_inv fuel ts t r : nud fuel ts = inl (t, r) ->
    (exists i a, ts = TAtom i a :: r /\ t = Atom i a) \/
    (exists rest e, ts = TSym "(" :: rest /\
       expr fuel paren_rbp rest = inl (e, TSym ")" :: r) /\ t = Paren e) \/
    (exists u rest e, ts = TSym (unop_sym u) :: rest /\
       expr fuel (un_rbp u) rest = inl (e, r) /\ t = Un u e).
  Proof.
    destruct ts as [|[i a|s] rest]; [discriminate|intros [= <- <-]; left; eauto|].
    intros H. right. unfold nud in H. destruct (String.eqb_spec s "(") as [->|_].
    - left. destruct (expr fuel paren_rbp rest) as [[e [|[|c] r']]|] eqn:Ee; try discriminate.
      destruct (String.eqb_spec c ")") as [->|_]; [|discriminate]. injection H as <- <-. eauto.
    - right.
      assert (Hu : forall u,
                match expr fuel (un_rbp u) rest with inl (e, r0) => inl (Un u e, r0) | inr e => inr e end
                = inl (t, r) -> exists e, expr fuel (un_rbp u) rest = inl (e, r) /\ t = Un u e).
      { intros u. destruct (expr fuel (un_rbp u) rest) as [[e r0]|] eqn:Ee; [intros [= <- <-]; eauto|discriminate]. }
      destruct (String.eqb_spec s "-") as [->|_]; [destruct (Hu UNeg H) as (e & He & ->); exists UNeg, rest, e; auto|].
      destruct (String.eqb_spec s "^") as [->|_]; [destruct (Hu UCompl H) as (e & He & ->); exists UCompl, rest, e; auto|].
      destruct (String.eqb_spec s "!") as [->|_]; [destruct (Hu UNot H) as (e & He & ->); exists UNot, rest, e; auto|].
      discriminate.
  Qed.

  Lemma led_inv fuel rbp lft ts t rest : led_loop fuel rbp lft ts = inl (t, rest) ->
    (t = lft /\ rest = ts /\ head_le rbp ts) \/
    (exists fuel' s rest0 rgt rest',
       fuel = S fuel' /\ ts = TSym s :: rest0 /\ rbp < lbp s /\ infix s = true /\
       expr fuel' (lbp s) rest0 = inl (rgt, rest') /\
       led_loop fuel' rbp (Bin s lft rgt) rest' = inl (t, rest)).
  Proof.
    destruct fuel as [|fuel].
    - rewrite led_O. destruct (Z.ltb_spec rbp (cur_lbp lbp ts)) as [|Hge]; [discriminate|].
      intros [= <- <-]. left. repeat split. intros s tl ->. exact Hge.
    - rewrite led_S.
      destruct ts as [|[i a|s] rest0]; try (intros [= <- <-]; left; repeat split; intros ? ? [=]).
      destruct (Z.ltb_spec rbp (lbp s)) as [Hlt|Hge];
        [|intros [= <- <-]; left; repeat split; intros ? ? [= <- <-]; exact Hge].
      destruct (infix s) eqn:Einf; [|discriminate].
      destruct (expr fuel (lbp s) rest0) as [[rgt rest']|] eqn:Ee; [|discriminate].
      intros H. right. exists fuel, s, rest0, rgt, rest'. auto 10.
  Qed.

  Lemma un_grouped : forall u e,
    grouped lbp e -> ops_ok infix e = true ->
    (forall p, root_prec lbp e = Some p -> un_rbp u < p) ->
    grouped lbp (Un u e).
  Proof.
    intros u e Hg Ho Hr. split; [exact Hg|].
    destruct (is_bin e) eqn:Eb; [exfalso|reflexivity]. destruct e; try discriminate.
    apply ops_ok_Bin in Ho. destruct Ho as (Hop & _).
    pose proof (infix_un_rbp u op Hop). pose proof (Hr _ eq_refl). lia.
  Qed.

  Definition sound_post (rbp : Z) (src : list tok) (t : tree) (rest : list tok) : Prop :=
    (flatten t ++ rest)%list = src /\ grouped lbp t /\ ops_ok infix t = true /\
    (forall p, root_prec lbp t = Some p -> rbp < p) /\ head_le rbp rest.

  Lemma sound_gen : forall fuel,
    (forall rbp ts t rest, expr fuel rbp ts = inl (t, rest) -> sound_post rbp ts t rest) /\
    (forall rbp lft ts t rest, led_loop fuel rbp lft ts = inl (t, rest) ->
       grouped lbp lft -> ops_ok infix lft = true ->
       (forall p, root_prec lbp lft = Some p -> rbp < p) ->
       (forall p, root_prec lbp lft = Some p -> head_le p ts) ->
       sound_post rbp (flatten lft ++ ts)%list t rest).
  Proof.
    induction fuel as [|fuel [IHe IHl]].
    - split; [intros rbp ts t rest H; discriminate H|].
      intros rbp lft ts t rest H Hg Ho Hr _. apply led_inv in H.
      destruct H as [(-> & -> & Hle)|(f & s & r0 & rgt & r' & [=] & _)]. repeat split; assumption.
    - split.
      + intros rbp ts t rest H. rewrite expr_S in H.
        destruct (nud fuel ts) as [[lft r]|] eqn:En; [|discriminate H].
        (* the loop starts from an operand that is not a binary node *)
        assert (IHl' : root_prec lbp lft = None -> grouped lbp lft -> ops_ok infix lft = true ->
                       sound_post rbp (flatten lft ++ r)%list t rest).
        { intros Hn Hg Ho. apply (IHl _ _ _ _ _ H Hg Ho); rewrite Hn; discriminate. }
        apply nud_inv in En.
        destruct En as [(i & a & -> & ->)|[(rest0 & e & -> & Ee & ->)|(u & rest0 & e & -> & Ee & ->)]].
        * exact (IHl' eq_refl I eq_refl).
        * destruct (IHe _ _ _ _ Ee) as (<- & Hg & Ho & _ & _).
          replace (TSym "(" :: _)%list with (flatten (Paren e) ++ r)%list
            by (simpl; rewrite <- app_assoc; reflexivity).
          exact (IHl' eq_refl Hg Ho).
        * destruct (IHe _ _ _ _ Ee) as (<- & Hg & Ho & Hr & _).
          exact (IHl' eq_refl (un_grouped u e Hg Ho Hr) Ho).
      + intros rbp lft ts t rest H Hg Ho Hr Hh. apply led_inv in H.
        destruct H as [(-> & -> & Hle)|(f & s & rest0 & rgt & rest' & [= <-] & -> & Hlt & Einf & Ee & H)];
          [repeat split; assumption|].
        destruct (IHe _ _ _ _ Ee) as (<- & Hgr & Hor & Hrr & Hhr).
        replace (flatten lft ++ _)%list with (flatten (Bin s lft rgt) ++ rest')%list
          by (simpl; rewrite <- app_assoc; reflexivity).
        apply (IHl _ _ _ _ _ H).
        * simpl. repeat split; try assumption; [apply infix_pos, Einf|].
          intros p Hp. exact (Hh p Hp s _ eq_refl).
        * apply ops_ok_Bin. auto.
        * intros p [= <-]. exact Hlt.
        * intros p [= <-]. exact Hhr.
  Qed.

  (* last conjunct: the loop stops at [rest] *)
  Theorem pratt_sound : forall fuel rbp ts t rest, 0 <= rbp ->
    expr fuel rbp ts = inl (t, rest) ->
    (flatten t ++ rest)%list = ts /\ grouped lbp t /\ ops_ok infix t = true /\
    (forall p, root_prec lbp t = Some p -> rbp < p) /\
    cur_lbp lbp rest <= rbp.
  Proof.
    intros fuel rbp ts t rest Hrbp H.
    destruct (sound_gen fuel) as [He _].
    apply He in H. destruct H as (Hf & Hg & Ho & Hr & Hh).
    repeat split; try assumption.
    destruct rest as [|[i a|s] tl]; simpl; try exact Hrbp.
    apply (Hh s tl eq_refl).
  Qed.

  Lemma led_stop : forall fuel rbp lft ts,
    cur_lbp lbp ts <= rbp -> led_loop fuel rbp lft ts = inl (lft, ts).
  Proof.
    intros fuel rbp lft ts Hle. destruct fuel as [|fuel].
    - rewrite led_O. apply Z.ltb_ge in Hle. rewrite Hle. reflexivity.
    - rewrite led_S. destruct ts as [|[i a|s] tl]; try reflexivity.
      simpl in Hle. apply Z.ltb_ge in Hle. rewrite Hle. reflexivity.
  Qed.

  Lemma un_rbp_nonneg u : 0 <= un_rbp u.
  Proof. destruct un_nonneg as (H1 & H2 & H3). destruct u; assumption. Qed.

  (* Parsing `flatten t ++ ts'` amounts to entering the led loop at ts' with t already built.  The fuel g
     with which the loop goes on is not tracked exactly: t costs at most one unit per token. *)
  Lemma complete_gen : forall t,
    grouped lbp t -> ops_ok infix t = true ->
    forall f rbp ts',
      (List.length (flatten t) <= f)%nat ->
      (forall p, root_prec lbp t = Some p -> rbp < p /\ cur_lbp lbp ts' <= p) ->
      (forall u, cur_lbp lbp ts' <= un_rbp u) ->
      exists g, (f <= g + List.length (flatten t))%nat /\
                expr f rbp (flatten t ++ ts')%list = led_loop g rbp t ts'.
  Proof.
    induction t as [i a|op l IHl r IHr|u e IHe|e IHe];
      intros Hg Ho f rbp ts' Hlen Hr Hfo; cbn [flatten app List.length] in *;
      rewrite ?app_length in *; cbn [List.length] in *.
    - destruct f as [|f]; [lia|]. exists f. split; [lia|reflexivity].
    - destruct Hg as (Hpos & Hgl & Hgr & Hll & Hrr).
      apply ops_ok_Bin in Ho. destruct Ho as (Hinf & Hol & Hor).
      destruct (Hr _ eq_refl) as (Hlt & Hcur).
      rewrite <- app_assoc. cbn [app].
      destruct (IHl Hgl Hol f rbp (TSym op :: flatten r ++ ts')%list) as (g & Hg & ->);
        [lia|intros p Hp; specialize (Hll p Hp); cbn; lia|intros u; exact (infix_un_rbp u op Hinf)|].
      destruct g as [|g]; [lia|].
      rewrite led_S, (proj2 (Z.ltb_lt _ _) Hlt), Hinf.
      destruct (IHr Hgr Hor g (lbp op) ts') as (g' & _ & ->);
        [lia|intros p Hp; specialize (Hrr p Hp); lia|exact Hfo|].
      rewrite (led_stop g' (lbp op) r ts' Hcur). exists g. split; [lia|reflexivity].
    - destruct Hg as [Hge Hnb].
      destruct f as [|f]; [lia|]. rewrite expr_S, nud_un.
      destruct (IHe Hge Ho f (un_rbp u) ts') as (g & _ & ->);
        [lia|rewrite (not_bin_root lbp e Hnb); discriminate|exact Hfo|].
      rewrite (led_stop g (un_rbp u) e ts' (Hfo u)).
      exists f. split; [lia|reflexivity].
    - assert (Hc : cur_lbp lbp (TSym ")" :: ts') = 0) by exact close_lbp.
      rewrite <- app_assoc. cbn [app].
      destruct f as [|f]; [lia|]. rewrite expr_S, nud_paren.
      destruct (IHe Hg Ho f paren_rbp (TSym ")" :: ts')) as (g & _ & ->);
        [lia| |intros u; rewrite Hc; apply un_rbp_nonneg|].
      + intros p Hp. destruct (ops_ok_root infix lbp e p Ho Hp) as (op & -> & Hop).
        pose proof (infix_paren op Hop). lia.
      + rewrite (led_stop g paren_rbp e (TSym ")" :: ts')) by lia.
        exists f. split; [lia|reflexivity].
  Qed.

  Theorem pratt_complete : forall t, grouped lbp t -> ops_ok infix t = true ->
    parse (flatten t) = inl (t, []).
  Proof.
    intros t Hg Ho. unfold parse, Pratt.parse.
    change (expr (S (S (List.length (flatten t)))) 0 (flatten t) = inl (t, [])).
    rewrite <- (app_nil_r (flatten t)) at 2.
    destruct (complete_gen t Hg Ho (S (S (List.length (flatten t)))) 0 []) as (g & _ & ->).
    - lia.
    - intros p Hp. pose proof (grouped_root_pos lbp t p Hg Hp). cbn. lia.
    - intros u. apply un_rbp_nonneg.
    - apply led_stop. cbn. lia.
  Qed.

  Corollary grouping_unique : forall t1 t2,
    grouped lbp t1 -> ops_ok infix t1 = true -> grouped lbp t2 -> ops_ok infix t2 = true ->
    flatten t1 = flatten t2 -> t1 = t2.
  Proof.
    intros t1 t2 Hg1 Ho1 Hg2 Ho2 Hfl.
    pose proof (pratt_complete t1 Hg1 Ho1) as H1.
    pose proof (pratt_complete t2 Hg2 Ho2) as H2.
    rewrite Hfl in H1. rewrite H1 in H2. injection H2 as H2. exact H2.
  Qed.
End Generic.

Lemma grouped_iso (p q : string -> Z) (P : string -> bool) :
  (forall a b, P a = true -> P b = true -> (p a < p b <-> q a < q b)) ->
  (forall a, P a = true -> (0 < p a <-> 0 < q a)) ->
  forall t, ops_ok P t = true -> (grouped p t <-> grouped q t).
Proof.
  intros Hlt Hpos.
  induction t as [i a|op l IHl r IHr|u e IHe|e IHe]; intros Ho; simpl.
  - tauto.
  - apply ops_ok_Bin in Ho. destruct Ho as (Hop & Hol & Hor).
    specialize (IHl Hol). specialize (IHr Hor).
    pose proof (Hpos op Hop) as Hp0.
    assert (HL : (forall x, root_prec p l = Some x -> p op <= x) <->
                 (forall x, root_prec q l = Some x -> q op <= x)).
    { apply (root_prec_iso p q P _ _ l Hol). intros op' Hop'. pose proof (Hlt op' op Hop' Hop). lia. }
    assert (HR : (forall x, root_prec p r = Some x -> p op < x) <->
                 (forall x, root_prec q r = Some x -> q op < x)).
    { apply (root_prec_iso p q P _ _ r Hor). intros op' Hop'. exact (Hlt op op' Hop Hop'). }
    tauto.
  - simpl in Ho. specialize (IHe Ho). tauto.
  - simpl in Ho. specialize (IHe Ho). tauto.
Qed.
