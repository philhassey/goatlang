(* C18: a closed block of code runs the same inside any surrounding code [exec_ctx]. *)
From Coq Require Import ZArith List String Ascii Bool Lia.
From GV Require Import GoSpec.GoPrim Gen.ValueOps_gen Gen.Tables_gen Model.VM Model.Incr Proofs.VM_step Proofs.C09_call Proofs.C18_step.
Import ListNotations.
Open Scope Z_scope.

Lemma skipn_ctx : forall {A} (pre c post : list A) k n, (k + n <= List.length c)%nat ->
  firstn n (skipn (List.length pre + k) (pre ++ c ++ post)) = firstn n (skipn k c).
Proof.
  intros A pre c post k n H.
  rewrite skipn_app, skipn_all2 by lia. cbn [app].
  replace (List.length pre + k - List.length pre)%nat with k by lia. rewrite skipn_app, firstn_app.
  replace (n - List.length (skipn k c))%nat with 0%nat by (rewrite skipn_length; lia).
  rewrite firstn_O. apply app_nil_r.
Qed.

Lemma tops_length : forall c k, List.length (tops k c) = List.length c.
Proof. induction c as [|i r IH]; intros k; [reflexivity|]. destruct k; cbn [tops List.length]; rewrite IH; reflexivity. Qed.

Lemma top_or_end_spec : forall c p, top_or_end c p = true ->
  0 <= p <= zlen c /\ (p < zlen c -> nth (Z.to_nat p) (tops O c) false = true).
Proof.
  intros c p H. unfold top_or_end in H. apply andb_true_iff in H. destruct H as [H0 H].
  apply Z.leb_le in H0. apply orb_true_iff in H. destruct H as [H|H]; [apply Z.eqb_eq in H; lia|].
  split; [|intros _; exact H].
  destruct (Nat.lt_ge_cases (Z.to_nat p) (List.length (tops O c))) as [Hn|Hge];
    [|rewrite nth_overflow in H by assumption; discriminate].
  rewrite tops_length in Hn. unfold zlen. lia.
Qed.

Lemma closed_at_spec : forall c p i, closedb c = true -> top_or_end c p = true -> znth c p = Some i ->
  icode i <> c_Return /\
  (icode i = c_Func -> 0 <= func_len i /\ top_or_end c (p + func_len i + 1) = true) /\
  (icode i <> c_Func -> top_or_end c (p + 1) = true /\ forall d, In d (jumps i) -> top_or_end c (p + d + 1) = true).
Proof.
  intros c p i Hc Ht Hz. pose proof (znth_Some _ _ _ Hz) as [H0 H1].
  pose proof (proj2 (top_or_end_spec _ _ Ht) H1) as Htop.
  unfold closedb in Hc. apply andb_true_iff in Hc. destruct Hc as [Hc _].
  rewrite forallb_forall in Hc. specialize (Hc (Z.to_nat p)).
  assert (Hin : In (Z.to_nat p) (seq 0 (List.length c))) by (apply in_seq; unfold zlen in H1; lia).
  specialize (Hc Hin). unfold closed_at in Hc.
  rewrite znth_nth_error in Hz by assumption. rewrite Hz, Htop in Hc. cbn [negb] in Hc.
  apply andb_true_iff in Hc. destruct Hc as [Hr Hc].
  rewrite Z2Nat.id in Hc by assumption.
  split; [|split].
  - intro E. rewrite E in Hr. discriminate.
  - intro E. rewrite E, Z.eqb_refl in Hc. apply andb_true_iff in Hc. destruct Hc as [Ha Hb].
    apply Z.leb_le in Ha. split; assumption.
  - intro E. apply Z.eqb_neq in E. rewrite E in Hc. apply andb_true_iff in Hc. destruct Hc as [Ha Hb].
    split; [assumption|]. rewrite forallb_forall in Hb. exact Hb.
Qed.

Section Seq.
  Variable grow : Z -> Z -> Z.
  Variable ext_get : st -> value -> value -> option (res value).
  Variable ext_set : st -> value -> value -> value -> option (res st).
  Variable ext_len : st -> value -> option Z.
  Variable ext_getattr : st -> value -> Z -> option (res (value * st)).
  Variable ext_setattr : st -> value -> Z -> value -> option (res st).
  Notation step1 := (VM.step1 grow ext_get ext_set ext_len ext_getattr ext_setattr).
  Notation exec := (VM.exec grow ext_get ext_set ext_len ext_getattr ext_setattr).
  Notation call_fn := (VM.call_fn grow ext_get ext_set ext_len ext_getattr ext_setattr).
  Notation exec_mono := (exec_mono grow ext_get ext_set ext_len ext_getattr ext_setattr).
  Notation turn := (turn grow ext_get ext_set ext_len ext_getattr ext_setattr).
  Notation exec_turn := (exec_turn grow ext_get ext_set ext_len ext_getattr ext_setattr).
  Notation turn_mono := (turn_mono grow ext_get ext_set ext_len ext_getattr ext_setattr).

  (* inside a closed block, control stays on its top-level positions, and the block ends by running off
     its end or with an error *)
  Lemma closed_turn : forall c, closedb c = true -> forall f codes pc i sl ops s,
    top_or_end c pc = true -> znth c pc = Some i ->
    match turn f i (step1 codes pc i sl ops s) with
    | Go d sl' _ _ => top_or_end c (pc + d) = true /\ List.length sl' = List.length sl
    | Stop r => forall sl' ops' s', r <> RDone sl' ops' s'
    end.
  Proof.
    intros c Hc f codes pc i sl ops s Ht Ez.
    destruct (closed_at_spec _ _ _ Hc Ht Ez) as [Hnr [Hfn Hnf]].
    pose proof (step1_shape grow ext_get ext_set ext_len ext_getattr ext_setattr codes pc i sl ops s) as Hs.
    destruct (step1 codes pc i sl ops s); cbn [step_shape turn] in *; try discriminate.
    - destruct Hs as [Hs Hl]. split; [apply (Hnf Hs)|exact Hl].
    - destruct Hs as [Hs Hl]. split; [|exact Hl]. rewrite Z.add_assoc.
      destruct (Z.eqb_spec (icode i) c_Func) as [Ef|Ef]; [subst d; apply (Hfn Ef)|apply (Hnf Ef), Hs].
    - destruct Hs as [Hs Hl].
      destruct (call_fn f pack fa xArgs xRets (ipos i) ops0 s0) eqn:Ec;
        [split; [apply (Hnf Hs)|exact Hl]|intros a b c' ->; exact (call_not_done _ _ _ _ _ _ _ _ _ _ _ _ _ _ _ _ _ Ec)].
    - contradiction (Hnr (proj1 Hs)).
  Qed.

  (* [lifts C e f pcC .. r]: r, obtained with fuel f for a block placed inside the code C, is what
     C does from pcC: a failure of the block is the failure of C; when the block completes, C goes
     on from the block's end e *)
  Definition lifts (C : list instr) (e : Z) (f : nat) (pcC : Z) (sl ops : list value) (s : st) (r : result) : Prop :=
    match r with
    | RFuel => True
    | RDone sl' ops' s' =>
        forall f2 r2, exec f2 C e sl' ops' s' = r2 -> r2 <> RFuel -> exec (f + f2) C pcC sl ops s = r2
    | _ => exec f C pcC sl ops s = r
    end.

  Lemma lifts_step : forall C e f pcC d sl ops s sl' ops' s' r,
    (forall f', (f <= f')%nat -> exec (S f') C pcC sl ops s = exec f' C (pcC + d) sl' ops' s') ->
    lifts C e f (pcC + d) sl' ops' s' r -> lifts C e (S f) pcC sl ops s r.
  Proof.
    intros C e f pcC d sl ops s sl' ops' s' r Hstep H.
    destruct r; cbn [lifts] in *; try (rewrite Hstep by lia; exact H); [|exact I].
    intros f2 r2 H2 Hr. change (S f + f2)%nat with (S (f + f2)). rewrite Hstep by lia. now apply H.
  Qed.

  Lemma exec_ctx : forall c, closedb c = true -> forall pre post f pc sl ops s,
    top_or_end c pc = true ->
    lifts (pre ++ c ++ post) (zlen pre + zlen c) f (zlen pre + pc) sl ops s (exec f c pc sl ops s).
  Proof.
    intros c Hc pre post. set (C := (pre ++ c ++ post)%list). set (L := zlen pre).
    induction f as [|f IH]; intros pc sl ops s Ht; [exact I|].
    pose proof (proj1 (top_or_end_spec _ _ Ht)) as Hp.
    rewrite exec_turn. destruct (znth c pc) as [i|] eqn:Ez.
    - pose proof (znth_Some _ _ _ Ez) as Hp1.
      assert (HzC : znth C (L + pc) = Some i) by (rewrite Z.add_comm; unfold C, L; rewrite znth_mid; assumption).
      assert (Hs : step1 C (L + pc) i sl ops s = step1 c pc i sl ops s).
      { apply step1_codes. intro Ef. destruct (proj1 (proj2 (closed_at_spec _ _ _ Hc Ht Ez)) Ef) as [Hl0 Hl1].
        apply top_or_end_spec in Hl1.
        replace (Z.to_nat (L + pc + 1)) with (List.length pre + Z.to_nat (pc + 1))%nat by (unfold L, zlen; lia).
        apply skipn_ctx. unfold zlen in *. lia. }
      assert (HS : forall f', exec (S f') C (L + pc) sl ops s =
                match turn f' i (step1 c pc i sl ops s) with
                | Go d sl' ops' s' => exec f' C (L + pc + d) sl' ops' s'
                | Stop r => r
                end) by (intro; rewrite exec_turn, HzC, Hs; reflexivity).
      pose proof (closed_turn c Hc f c pc i sl ops s Ht Ez) as Hn.
      destruct (turn f i (step1 c pc i sl ops s)) as [d sl' ops' s'|r] eqn:Et.
      + apply (lifts_step _ _ _ _ d _ _ _ sl' ops' s'); [|rewrite <- Z.add_assoc; apply IH, Hn].
        intros f' Hle. rewrite (HS f'), (turn_mono f f' _ _ _ Et) by (exact Hle || discriminate). reflexivity.
      + specialize (HS f). rewrite Et in HS. destruct r; try exact HS; [|exact I]. now contradiction (Hn slots ops0 s0).
    - (* the end of the block *)
      destruct (znth_none _ _ Ez) as [Hlt|Hge]; [lia|]. replace pc with (zlen c) by lia.
      intros f2 r2 H2 Hr2. eapply exec_mono; eauto. lia.
  Qed.
End Seq.
