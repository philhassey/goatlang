(* C10: the ordered-map wrapper of Model/OMap.v behaves like a finite map, and its
   range satisfies Go's iteration contract under arbitrary mutation during the loop. *)
From Coq Require Import ZArith List Bool Lia Permutation.
From GV Require Import Model.OMap.
Import ListNotations.

Section Spec.
  Context {K V : Type}.
  Variable keqb : K -> K -> bool.
  Hypothesis keqb_spec : forall a b, keqb a b = true <-> a = b.
  Variable assignV : V -> Z -> V.
  Variable zeroV : Z -> V.

  Notation omap := (@omap K V).
  Notation lookup := (lookup keqb).
  Notation set := (set keqb assignV).
  Notation delete := (delete keqb).
  Notation get := (get keqb zeroV).
  Notation next := (next keqb).
  Notation apply := (apply keqb assignV).
  Notation apply_all := (apply_all keqb assignV).
  Notation range_loop := (range_loop keqb assignV).
  Notation new_map := (new_map keqb assignV).

  Definition live (m : omap) (k : K) : Prop := lookup k (data m) <> None.

  Definition Inv (m : omap) : Prop :=
    NoDup (keys m) /\ NoDup (map fst (data m)) /\ forall k, live m k -> In k (keys m).

  (* an operation whose Delete oracle is a permutation of the keys that stay live *)
  Definition op_ok (m : omap) (o : @op K V) : Prop :=
    match o with OSet _ _ => True | ODelete k order => order_ok keqb m k order end.
  Fixpoint ops_ok (m : omap) (os : list (@op K V)) : Prop :=
    match os with [] => True | o :: r => op_ok m o /\ ops_ok (apply m o) r end.

  Notation remove := (OMap.remove keqb).
  Notation upsert := (OMap.upsert keqb).
  Notation mem := (OMap.mem keqb).
  Notation kmem := (OMap.kmem keqb).
  Implicit Types d : list (K * V).
  Implicit Types m : omap.

  Lemma keqb_refl : forall a, keqb a a = true.
  Proof. intros a. apply keqb_spec. reflexivity. Qed.

  Lemma keqbP : forall a b, reflect (a = b) (keqb a b).
  Proof. intros a b. apply iff_reflect. symmetry. apply keqb_spec. Qed.

  Lemma lookup_In : forall k d, lookup k d <> None <-> In k (map fst d).
  Proof.
    intros k d. induction d as [|[k' v'] d IH]; simpl.
    - split; [intros H; apply H; reflexivity | intros []].
    - destruct (keqbP k k') as [<-|Hne].
      + split; [intros _; left; reflexivity | discriminate].
      + rewrite IH. split; [intros H; right; exact H|].
        intros [H|H]; [congruence | exact H].
  Qed.

  Lemma memP : forall k d, reflect (In k (map fst d)) (mem k d).
  Proof.
    intros k d. apply iff_reflect. rewrite <- lookup_In. unfold OMap.mem.
    destruct (lookup k d); split; congruence.
  Qed.

  Lemma kmemP : forall k (l : list K), reflect (In k l) (kmem k l).
  Proof.
    intros k l. apply iff_reflect. unfold OMap.kmem. rewrite existsb_exists. split.
    - intros H. exists k. split; [exact H | apply keqb_refl].
    - intros (x & Hx & E). apply keqb_spec in E. subst x. exact Hx.
  Qed.

  Lemma lookup_upsert : forall k k' v d,
    lookup k' (upsert k v d) = if keqb k' k then Some v else lookup k' d.
  Proof.
    intros k k' v d. induction d as [|[k0 v0] d IH]; simpl.
    - reflexivity.
    - destruct (keqbP k k0) as [<-|Hne]; simpl.
      + destruct (keqb k' k); reflexivity.
      + rewrite IH. destruct (keqbP k' k) as [->|_]; [|reflexivity].
        destruct (keqbP k k0); [contradiction | reflexivity].
  Qed.

  Lemma lookup_remove_same : forall k d, lookup k (remove k d) = None.
  Proof.
    intros k d. induction d as [|[k0 v0] d IH]; simpl.
    - reflexivity.
    - destruct (keqb k k0) eqn:E; simpl; [exact IH | rewrite E; exact IH].
  Qed.

  Lemma lookup_remove_other : forall k k' d, k' <> k -> lookup k' (remove k d) = lookup k' d.
  Proof.
    intros k k' d Hne. induction d as [|[k0 v0] d IH]; simpl.
    - reflexivity.
    - destruct (keqbP k k0) as [<-|_]; simpl.
      + destruct (keqbP k' k); [contradiction | exact IH].
      + rewrite IH. reflexivity.
  Qed.

  Lemma dom_upsert : forall k v d,
    map fst (upsert k v d) = if mem k d then map fst d else map fst d ++ [k].
  Proof.
    intros k v d. unfold OMap.mem. induction d as [|[k0 v0] d IH]; simpl.
    - reflexivity.
    - destruct (keqb k k0); simpl; [reflexivity|]. rewrite IH. destruct (lookup k d); reflexivity.
  Qed.

  Lemma dom_remove : forall k d,
    map fst (remove k d) = filter (fun x => negb (keqb k x)) (map fst d).
  Proof.
    intros k d. induction d as [|[k0 v0] d IH]; simpl.
    - reflexivity.
    - destruct (keqb k k0); simpl; rewrite IH; reflexivity.
  Qed.

  Lemma NoDup_dom_remove : forall k d, NoDup (map fst d) -> NoDup (map fst (remove k d)).
  Proof. intros k d H. rewrite dom_remove. apply NoDup_filter. exact H. Qed.

  Lemma NoDup_snoc : forall (l : list K) k, NoDup l -> ~ In k l -> NoDup (l ++ [k]).
  Proof.
    intros l k Hnd Hnin. apply (Permutation_NoDup (Permutation_cons_append l k)).
    constructor; assumption.
  Qed.

  Lemma NoDup_dom_upsert : forall k v d, NoDup (map fst d) -> NoDup (map fst (upsert k v d)).
  Proof.
    intros k v d H. rewrite dom_upsert.
    destruct (memP k d); [exact H | apply NoDup_snoc; assumption].
  Qed.

  Lemma length_upsert : forall k v d, length (upsert k v d) = if mem k d then length d else S (length d).
  Proof.
    intros k v d. rewrite <- (map_length fst (upsert k v d)), dom_upsert.
    destruct (mem k d); rewrite ?app_length, map_length; [reflexivity | apply Nat.add_1_r].
  Qed.

  Lemma length_remove : forall k d, NoDup (map fst d) ->
    length d = if mem k d then S (length (remove k d)) else length (remove k d).
  Proof.
    intros k d. unfold OMap.mem. induction d as [|[k0 v0] d IH]; simpl; intros H.
    - reflexivity.
    - inversion H as [|a l Hnin Hnd]; subst. rewrite (IH Hnd).
      destruct (keqbP k k0) as [<-|_]; simpl.
      + destruct (lookup k d) eqn:E; [|reflexivity].
        exfalso. apply Hnin, lookup_In. rewrite E. discriminate.
      + destruct (lookup k d); reflexivity.
  Qed.

  Lemma NoDup_app_r : forall (pre l : list K), NoDup (pre ++ l) -> NoDup l.
  Proof.
    intros pre l. induction pre as [|a pre IH]; simpl; intros H.
    - exact H.
    - inversion H; subst. apply IH. assumption.
  Qed.

  Lemma next_spec : forall m r,
    match next m r with
    | Some (k, v, r') => exists pre, r = pre ++ k :: r' /\ lookup k (data m) = Some v /\
                                     forall x, In x pre -> lookup x (data m) = None
    | None => forall x, In x r -> lookup x (data m) = None
    end.
  Proof.
    intros m r. induction r as [|a r IH]; simpl.
    - intros x [].
    - destruct (lookup a (data m)) eqn:E.
      + exists []. split; [reflexivity|]. split; [exact E|]. intros x [].
      + destruct (next m r) as [[[k v] r']|].
        * destruct IH as (pre & -> & Hl & Hp). exists (a :: pre).
          split; [reflexivity|]. split; [exact Hl|].
          intros x [<-|Hx]; [exact E | exact (Hp x Hx)].
        * intros x [<-|Hx]; [exact E | exact (IH x Hx)].
  Qed.

  Lemma delete_eq : forall m k order,
    delete m k order =
    mkOMap (remove k (data m))
           (if (length (keys m) / 2 <=? length (remove k (data m)))%nat then keys m else order) (vtype m).
  Proof. intros m k order. unfold OMap.delete. destruct (_ <=? _)%nat; reflexivity. Qed.

  (* under Inv the three-way test of Set is "append unless listed": a live key is listed, and when there
     are as many listed keys as live ones every listed key is live, so a key that is not live is not listed *)
  Lemma set_eq : forall m k v, Inv m ->
    set m k v = mkOMap (upsert k (assignV v (vtype m)) (data m))
                       (if kmem k (keys m) then keys m else keys m ++ [k]) (vtype m).
  Proof.
    intros m k v (Hk & Hd & Hl). unfold OMap.set. f_equal.
    destruct (memP k (data m)) as [Hlive|Hdead].
    - destruct (kmemP k (keys m)) as [_|Hnin]; [reflexivity|].
      exfalso. apply Hnin, Hl, lookup_In, Hlive.
    - destruct (length (keys m) =? length (data m))%nat eqn:Hlen; [|reflexivity].
      destruct (kmemP k (keys m)) as [Hin|_]; [|reflexivity].
      exfalso. apply Hdead. apply Nat.eqb_eq in Hlen.
      apply (NoDup_length_incl (l' := keys m) Hd); [rewrite map_length; lia | | exact Hin].
      intros x Hx. apply Hl, lookup_In, Hx.
  Qed.

  Lemma inv_upsert : forall m k v ks' vt,
    Inv m -> NoDup ks' -> incl (keys m) ks' -> In k ks' ->
    Inv (mkOMap (upsert k v (data m)) ks' vt).
  Proof.
    intros m k v ks' vt (Hk & Hd & Hl) Hnd Hincl Hin.
    unfold Inv, live. simpl. split; [exact Hnd|]. split; [apply NoDup_dom_upsert; exact Hd|].
    intros x. rewrite lookup_upsert.
    destruct (keqbP x k) as [->|_]; [intros _; exact Hin | intros Hx; apply Hincl, Hl, Hx].
  Qed.

  Lemma inv_upsert_snoc : forall m k v vt,
    Inv m -> ~ In k (keys m) -> Inv (mkOMap (upsert k v (data m)) (keys m ++ [k]) vt).
  Proof.
    intros m k v vt Hinv Hnin. apply inv_upsert.
    - exact Hinv.
    - apply NoDup_snoc; [apply Hinv | exact Hnin].
    - apply incl_appl, incl_refl.
    - apply in_or_app. right. left. reflexivity.
  Qed.

  Lemma inv_from_pairs : forall vt ps m,
    Inv m -> NoDup (keys m ++ map fst ps) -> Inv (from_pairs keqb assignV vt ps m).
  Proof.
    intros vt ps. induction ps as [|[k v] ps IH]; intros m Hm Hnd; simpl.
    - exact Hm.
    - apply IH; simpl.
      + apply inv_upsert_snoc; [exact Hm|].
        intros Hin. apply (NoDup_remove_2 _ _ _ Hnd), in_or_app. left. exact Hin.
      + rewrite <- app_assoc. exact Hnd.
  Qed.

  Theorem inv_new : forall vt ps, NoDup (map fst ps) -> Inv (new_map vt ps).
  Proof.
    intros vt ps Hnd. apply inv_from_pairs; [|exact Hnd].
    split; [constructor|]. split; [constructor|]. intros k H. contradiction H. reflexivity.
  Qed.

  (* refinement to a finite map: lookups see the latest write, a missing key gives the zero value
     of the element type and ok = false, len counts live keys *)
  Theorem get_set_same : forall m k v, get (set m k v) k = (assignV v (vtype m), true).
  Proof.
    intros m k v. unfold OMap.get, OMap.set. simpl. rewrite lookup_upsert, keqb_refl. reflexivity.
  Qed.
  Theorem get_set_other : forall m k k' v, k' <> k -> get (set m k v) k' = get m k'.
  Proof.
    intros m k k' v Hne. unfold OMap.get, OMap.set. simpl. rewrite lookup_upsert.
    destruct (keqbP k' k); [contradiction | reflexivity].
  Qed.
  Theorem get_delete_same : forall m k order,
    get (delete m k order) k = (zeroV (vtype m), false).
  Proof.
    intros m k order. rewrite delete_eq. unfold OMap.get. simpl.
    rewrite lookup_remove_same. reflexivity.
  Qed.
  Theorem get_delete_other : forall m k k' order, k' <> k -> get (delete m k order) k' = get m k'.
  Proof.
    intros m k k' order Hne. rewrite delete_eq. unfold OMap.get. simpl.
    rewrite (lookup_remove_other _ _ _ Hne). reflexivity.
  Qed.
  Theorem len_set : forall m k v, len (set m k v) = if mem k (data m) then len m else S (len m).
  Proof. intros m k v. apply length_upsert. Qed.
  Theorem len_delete : forall m k order, Inv m -> len (delete m k order) = if mem k (data m) then len m - 1 else len m.
  Proof.
    intros m k order (_ & Hd & _). rewrite delete_eq. unfold OMap.len. simpl.
    rewrite (length_remove k _ Hd). destruct (mem k (data m)); lia.
  Qed.
  Theorem vtype_preserved : forall m o, vtype (apply m o) = vtype m.
  Proof. intros m [k v|k order]; simpl; [|rewrite delete_eq]; reflexivity. Qed.

  Lemma inv_set : forall m k v, Inv m -> Inv (set m k v).
  Proof.
    intros m k v Hinv. rewrite (set_eq _ _ _ Hinv).
    destruct (kmemP k (keys m)) as [Hin|Hnin].
    - apply inv_upsert; [exact Hinv | apply Hinv | apply incl_refl | exact Hin].
    - apply inv_upsert_snoc; assumption.
  Qed.

  (* a compaction replaces the key list by the oracle's order of the live keys *)
  Lemma inv_delete : forall m k order, Inv m -> order_ok keqb m k order -> Inv (delete m k order).
  Proof.
    intros m k order (Hk & Hd & Hl) Hok. apply Permutation_sym in Hok.
    rewrite delete_eq. unfold Inv, live. simpl.
    split; [|split; [apply NoDup_dom_remove; exact Hd|]].
    - destruct (_ <=? _)%nat; [exact Hk|].
      apply (Permutation_NoDup Hok), NoDup_dom_remove, Hd.
    - intros x Hx. apply lookup_In in Hx. destruct (_ <=? _)%nat.
      + rewrite dom_remove in Hx. apply filter_In in Hx. apply Hl, lookup_In, Hx.
      + apply (Permutation_in x Hok), Hx.
  Qed.

  Theorem inv_apply : forall m o, Inv m -> op_ok m o -> Inv (apply m o).
  Proof.
    intros m [k v|k order] Hinv Hok; [apply inv_set | apply inv_delete]; assumption.
  Qed.
  Theorem inv_apply_all : forall os m, Inv m -> ops_ok m os -> Inv (apply_all m os).
  Proof.
    induction os as [|o os IH]; intros m Hinv Hok; simpl.
    - exact Hinv.
    - destruct Hok as [Ho Hos]. apply IH; [apply inv_apply; assumption | exact Hos].
  Qed.

  (* the range contract.  [states fuel m r body] lists the map states at the moments range_loop calls
     `next` (so the liveness of a key "for the whole loop" can be stated) *)
  Fixpoint states (fuel : nat) (m : omap) (r : list K) (body : K -> list (@op K V)) : list omap :=
    match fuel with
    | O => [m]
    | S f => match next m r with
             | None => [m]
             | Some (k, _, r') => m :: states f (apply_all m (body k)) r' body
             end
    end.
  (* body operations are ok whenever they are run: the premise of inv_apply_all at every visit.  No lemma here
     is stated with it (Witness/NV_C14C10 evaluates it on concrete bodies): the range lemmas below assume nothing
     about the body, not even that the order lists of its deletes are permutations of the live keys. *)
  Fixpoint body_ok (fuel : nat) (m : omap) (r : list K) (body : K -> list (@op K V)) : Prop :=
    match fuel with
    | O => True
    | S f => match next m r with
             | None => True
             | Some (k, _, r') => ops_ok m (body k) /\ body_ok f (apply_all m (body k)) r' body
             end
    end.

  Lemma fst_range_loop_S : forall f m r body,
    fst (range_loop (S f) m r body) =
    match next m r with
    | None => []
    | Some (k, _, r') => k :: fst (range_loop f (apply_all m (body k)) r' body)
    end.
  Proof.
    intros f m r body. simpl. destruct (next m r) as [[[k v] r']|]; [|reflexivity].
    destruct (range_loop f (apply_all m (body k)) r' body). reflexivity.
  Qed.

  Lemma states_head : forall fuel m r body, In m (states fuel m r body).
  Proof.
    intros fuel m r body. destruct fuel as [|f]; simpl.
    - left. reflexivity.
    - destruct (next m r) as [[[k0 v0] r']|]; left; reflexivity.
  Qed.

  Lemma range_loop_In : forall fuel m r body k, In k (fst (range_loop fuel m r body)) -> In k r.
  Proof.
    induction fuel as [|f IH]; intros m r body k.
    - intros [].
    - rewrite fst_range_loop_S. pose proof (next_spec m r) as N.
      destruct (next m r) as [[[k0 v0] r']|]; [|intros []].
      destruct N as (pre & -> & _). intros H. apply in_or_app. right.
      destruct H as [H|H]; [left; exact H | right; exact (IH _ _ _ _ H)].
  Qed.

  Lemma range_loop_NoDup : forall fuel m r body, NoDup r -> NoDup (fst (range_loop fuel m r body)).
  Proof.
    induction fuel as [|f IH]; intros m r body Hnd.
    - constructor.
    - rewrite fst_range_loop_S. pose proof (next_spec m r) as N.
      destruct (next m r) as [[[k0 v0] r']|]; [|constructor].
      destruct N as (pre & -> & _). apply NoDup_app_r in Hnd.
      inversion Hnd as [|a l Hnin Hnd']; subst.
      constructor; [|exact (IH _ _ _ Hnd')].
      intros Hin. apply Hnin. exact (range_loop_In _ _ _ _ _ Hin).
  Qed.

  Lemma range_loop_complete : forall fuel m r body k,
    length r < fuel -> In k r ->
    (forall s, In s (states fuel m r body) -> live s k) ->
    In k (fst (range_loop fuel m r body)).
  Proof.
    induction fuel as [|f IH]; intros m r body k Hlen Hin Hlive; [lia|].
    assert (Hm : live m k) by (apply Hlive, states_head).
    rewrite fst_range_loop_S. simpl in Hlive. pose proof (next_spec m r) as N.
    destruct (next m r) as [[[k0 v0] r']|].
    - destruct N as (pre & -> & _ & Hpre). rewrite app_length in Hlen. simpl in Hlen.
      apply in_app_or in Hin. destruct Hin as [Hin|[Hin|Hin]].
      + exfalso. apply Hm, Hpre, Hin.
      + left. exact Hin.
      + right. apply IH; [lia | exact Hin |]. intros s Hs. apply Hlive. right. exact Hs.
    - exfalso. apply Hm, N, Hin.
  Qed.

  Lemma range_loop_live : forall fuel m r body k,
    In k (fst (range_loop fuel m r body)) ->
    exists s, In s (states fuel m r body) /\ live s k.
  Proof.
    induction fuel as [|f IH]; intros m r body k.
    - intros [].
    - rewrite fst_range_loop_S. simpl states. pose proof (next_spec m r) as N.
      destruct (next m r) as [[[k0 v0] r']|]; [|intros []].
      intros [<-|H].
      + exists m. split; [left; reflexivity|].
        destruct N as (pre & _ & Hl & _). unfold live. rewrite Hl. discriminate.
      + destruct (IH _ _ _ _ H) as (s & Hs & Hlv).
        exists s. split; [right; exact Hs | exact Hlv].
  Qed.

  (* sharper form of "never a deleted key": the i-th visited key is live in the i-th state *)
  Theorem range_visits_live : forall fuel m r body,
    let vs := fst (range_loop fuel m r body) in
    Forall2 (fun k s => live s k) vs (firstn (length vs) (states fuel m r body)).
  Proof.
    induction fuel as [|f IH]; intros m r body; [constructor|].
    cbv zeta. rewrite fst_range_loop_S. simpl states. pose proof (next_spec m r) as N.
    destruct (next m r) as [[[k0 v0] r']|]; [|constructor].
    destruct N as (pre & _ & Hl & _). simpl. constructor; [|apply IH].
    unfold live. rewrite Hl. discriminate.
  Qed.
End Spec.
