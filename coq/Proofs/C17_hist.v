(* C17, part 3: histories (Load | capture/store | call | identity test) and what
   a Load does to package-level variables. *)
From Coq Require Import ZArith List Bool Lia.
From GV Require Import Model.Reload Proofs.C17_base Proofs.C17_reload.
Import ListNotations.
Open Scope Z_scope.

(* stores made by scripts or the host go to variables, never to the name of a declared
   function or type (Go has no assignment to a function or type name) *)
Definition protected (S : sig) (n : name) : Prop := In n (tnames S) \/ In n (sfuncs S).
Definition hop_ok (S : sig) (o : hop) : Prop :=
  match o with HStore (LGlobal n) _ => ~ protected S n | _ => True end.
Definition hist_ok (S : sig) (h : list hop) : Prop := Forall (hop_ok S) h.

Fixpoint last_load (h : list hop) : option nat :=
  match h with
  | [] => None
  | o :: r => match last_load r with
              | Some v => Some v
              | None => match o with HLoad v => Some v | _ => None end
              end
  end.

Lemma last_load_app : forall h1 h2,
  last_load (h1 ++ h2) = match last_load h2 with Some v => Some v | None => last_load h1 end.
Proof.
  induction h1; simpl; intros.
  - destruct (last_load h2); auto.
  - rewrite IHh1. destruct (last_load h2); auto.
Qed.

Lemma run_app : forall prog h1 h2 st,
  run prog st (h1 ++ h2) =
  match run prog st h1 with
  | Some (st1, o1) => match run prog st1 h2 with Some (st2, o2) => Some (st2, (o1 ++ o2)%list) | None => None end
  | None => None
  end.
Proof.
  induction h1; simpl; intros.
  - destruct (run prog st h2) as [[]|]; auto.
  - destruct (step prog st a) as [[st1 ob]|]; auto. rewrite IHh1.
    destruct (run prog st1 h1) as [[st2 o1]|]; auto.
    destruct (run prog st2 h2) as [[st3 o2]|]; auto. now rewrite app_assoc.
Qed.

(* What an operation other than Load can change: the only new function objects are bound
   methods whose target is an entry of a method table; type objects and the globals named after
   declared types and functions stay; the host's slots only grow. *)
Definition newbound (st : state) (x : list fobj) : Prop :=
  Forall (fun o => exists r f ta ty m, o = FBound r f /\ nth_error (types st) ta = Some ty /\
                                       lookup m (tmethods ty) = Some (VFunc f)) x.

Definition hframe (S : sig) (st st' : state) : Prop :=
  types st' = types st /\ (exists x, funcs st' = funcs st ++ x /\ newbound st x)%list /\
  (forall n, protected S n -> gget st' n = gget st n) /\ (exists y, slots st' = slots st ++ y)%list.

Lemma hframe_same : forall S st st', types st' = types st -> funcs st' = funcs st ->
  (forall n, protected S n -> gget st' n = gget st n) -> (exists y, slots st' = slots st ++ y)%list -> hframe S st st'.
Proof.
  intros S st st' T F G SL. repeat split; auto. exists []. split; [now rewrite app_nil_r | constructor].
Qed.

Lemma hframe_alloc : forall S, alloc_rel (hframe S).
Proof.
  split.
  - intros. apply hframe_same; auto using ext_refl.
  - intros a b c (T1 & (x1 & F1 & N1) & G1 & S1) (T2 & (x2 & F2 & N2) & G2 & S2). repeat split.
    + congruence.
    + exists (x1 ++ x2)%list. split; [rewrite F2, F1; now rewrite app_assoc|].
      apply Forall_app. split; auto. unfold newbound in *. now rewrite T1 in N2.
    + intros. rewrite G2, G1; auto.
    + eapply ext_trans; eauto.
  - intros s i o ty a f NI NT L. repeat split; simpl; auto using ext_refl.
    exists [FBound i f]. split; auto. constructor; [|constructor]. exists i, f, (ity o), ty, a. auto.
  - intros. apply hframe_same; auto using ext_refl.
Qed.

Lemma store_hframe : forall S st l e v st', hop_ok S (HStore l e) -> store st l v = Some st' -> hframe S st st'.
Proof.
  intros S st l e v st' OK E. destruct l; simpl in *.
  - inv E. apply hframe_same; simpl; eauto.
  - inv E. apply hframe_same; auto using ext_refl.
    intros m P. apply gget_gset_other. intro. subst. contradiction.
  - destruct (eval_path st p) as [[st1 []]|] eqn:EP; try discriminate.
    destruct (nth_error (insts st1) a); inv E.
    eapply (ar_trans _ (hframe_alloc S)); [eapply eval_path_rel; eauto using hframe_alloc|].
    apply hframe_same; auto using ext_refl.
Qed.

Lemma step_hframe : forall S prog st o st' ob, (forall v, o <> HLoad v) -> hop_ok S o ->
  step prog st o = Some (st', ob) -> hframe S st st'.
Proof.
  intros S prog st o st' ob NL OK E. pose proof (hframe_alloc S) as AR. destruct o; simpl in E.
  - exfalso. eapply NL; eauto.
  - destruct (eval_expr st e) as [[st1 v]|] eqn:EE; try discriminate.
    destruct (store st1 l v) as [st2|] eqn:ES; inv E.
    eapply (ar_trans _ AR); [eapply eval_expr_rel | eapply store_hframe]; eauto.
  - destruct (eval_path st p) as [[st1 v]|] eqn:EP; try discriminate.
    destruct (call_obs st1 v); inv E. eapply eval_path_rel; eauto.
  - destruct (eval_path st p) as [[st1 v]|] eqn:EP; try discriminate.
    destruct (eval_path st1 q) as [[st2 w]|] eqn:EQ; try discriminate.
    destruct (same_obj v w); inv E. eapply (ar_trans _ AR); eapply eval_path_rel; eauto.
Qed.

Section Hist.
  Variable S : sig.
  Hypothesis WF : wf_sig S.
  Variable beta : nat -> bodies.                      (* version number -> its bodies *)
  Definition prog (v : nat) : list instr := version_of S (beta v).

  Definition Latest (st : state) (v : nat) : Prop :=
    forall k a, key_ok S k -> fn_addr st k = Some a -> nth_error (funcs st) a = Some (FBody (body_of (beta v) k)).
  Definition Defined (st : state) : Prop := forall k, key_ok S k -> exists a, fn_addr st k = Some a.
  Definition Stable (st st' : state) : Prop :=
    (forall k a, key_ok S k -> fn_addr st k = Some a -> fn_addr st' k = Some a) /\
    (forall c r f, nth_error (funcs st) c = Some (FBound r f) -> nth_error (funcs st') c = Some (FBound r f)) /\
    (exists y, slots st' = slots st ++ y)%list.

  Lemma key_protected : forall k, key_ok S k -> protected S (key_name k).
  Proof. destruct k; simpl; intros. now right. left. eapply wf_meth; eauto. Qed.

  Lemma hframe_fn_addr : forall st st' k, hframe S st st' -> key_ok S k -> fn_addr st' k = fn_addr st k.
  Proof.
    intros st st' k (T & _ & G & _) KO. pose proof (G _ (key_protected k KO)) as GK.
    destruct k; simpl in *; rewrite GK; auto. now rewrite T.
  Qed.

  Lemma hframe_good : forall st st', hframe S st st' -> Inv S st ->
    Inv S st' /\ Stable st st' /\ forall v, Latest st v -> Latest st' v.
  Proof.
    intros st st' H I. pose proof H as (T & (x & F & _) & G & SL).
    assert (FA : forall k, key_ok S k -> fn_addr st' k = fn_addr st k) by (intros; now apply hframe_fn_addr).
    assert (OLD : forall a o, nth_error (funcs st) a = Some o -> nth_error (funcs st') a = Some o)
      by (intros; rewrite F; now apply nth_app_old).
    split; [split|split; [repeat split; auto|]].
    - intros k a KO. rewrite FA by auto. intros E. destruct (inv_faddr S st I k a KO E) as [b N]. eauto.
    - intros k k' a KO KO'. rewrite !FA by auto. now apply (inv_inj S st I).
    - intros t ta TN. rewrite G, T by (left; auto). now apply (inv_ty S st I).
    - intros t t' ta TN TN'. rewrite !G by (left; auto). now apply (inv_tyinj S st I).
    - intros k a KO. now rewrite FA.
    - intros v L k a KO. rewrite FA by auto. intros E. now apply OLD, L.
  Qed.

  Lemma stable_refl : forall a, Stable a a.
  Proof. intros. repeat split; auto using ext_refl. Qed.
  Lemma stable_trans : forall a b c, Stable a b -> Stable b c -> Stable a c.
  Proof. intros a b c (A1 & B1 & S1) (A2 & B2 & S2). repeat split; auto. eapply ext_trans; eauto. Qed.
  Lemma stable_defined : forall st st', Stable st st' -> Defined st -> Defined st'.
  Proof. intros st st' (A & _) D k KO. destruct (D k KO) as [a F]. eauto. Qed.

  Lemma step_good : forall st o st' ob, hop_ok S o -> Inv S st -> step prog st o = Some (st', ob) ->
    Inv S st' /\ Stable st st' /\
    match o with
    | HLoad v => Latest st' v /\ Defined st'
    | _ => (forall v, Latest st v -> Latest st' v)
    end.
  Proof.
    intros st o st' ob OK I E.
    destruct o as [v|l e|p|p q].
    1: { simpl in E. destruct (exec_list st (prog v)) as [st1|] eqn:EL; inv E.
      destruct (version_ok S (beta v)) as [VO VB].
      destruct (exec_list_stable S WF _ _ _ VO I EL) as [SA SB].
      destruct (exec_list_frame _ _ _ EL) as (SL & _).
      split; [exact (exec_list_inv S WF _ _ _ VO I EL)|].
      split; [split; [exact SA| split; [exact SB| rewrite SL; apply ext_refl]]|].
      split.
      + intros k a KO FA. apply (exec_list_latest S WF (beta v) _ _ _ VO VB I EL k a KO FA). now apply version_has_key.
      + intros k KO. apply (exec_list_defined S WF _ _ _ VO I EL k KO). now apply version_has_key. }
    all: apply hframe_good; [eapply step_hframe; eauto; congruence | exact I].
  Qed.

  Lemma run_good : forall h st st' o, hist_ok S h -> Inv S st -> run prog st h = Some (st', o) ->
    Inv S st' /\ Stable st st' /\
    match last_load h with
    | Some v => Latest st' v /\ Defined st'
    | None => (forall v, Latest st v -> Latest st' v)
    end.
  Proof.
    induction h as [|op r IH]; simpl; intros st st' o OK I E.
    - inv E. auto using stable_refl.
    - inv OK. destruct (step prog st op) as [[st1 ob]|] eqn:ES; try discriminate.
      destruct (run prog st1 r) as [[st2 obs]|] eqn:ER; inv E.
      destruct (step_good _ _ _ _ H1 I ES) as (I1 & S1 & L1).
      destruct (IH _ _ _ H2 I1 ER) as (I2 & S2 & L2).
      split; auto. split. eapply stable_trans; eauto.
      destruct (last_load r) as [v|]; auto.
      destruct op; auto.
      destruct L1 as [LA DE]. split; auto. eapply stable_defined; eauto.
  Qed.

  (* every declared function / method has ONE function object from its first Load on; bound-method
     objects keep receiver and target; what the host keeps, it keeps *)
  Theorem identity : forall h1 h2 st1 o1 st2 o2, hist_ok S h1 -> hist_ok S h2 ->
    run prog init_state h1 = Some (st1, o1) -> run prog st1 h2 = Some (st2, o2) ->
    (forall k a, key_ok S k -> fn_addr st1 k = Some a -> fn_addr st2 k = Some a) /\
    (last_load h1 <> None -> forall k, key_ok S k -> exists a, fn_addr st1 k = Some a) /\
    (forall k k' a, key_ok S k -> key_ok S k' -> fn_addr st1 k = Some a -> fn_addr st1 k' = Some a -> k = k') /\
    (forall c r f, nth_error (funcs st1) c = Some (FBound r f) -> nth_error (funcs st2) c = Some (FBound r f)) /\
    (forall i v, nth_error (slots st1) i = Some v -> nth_error (slots st2) i = Some v).
  Proof.
    intros h1 h2 st1 o1 st2 o2 OK1 OK2 R1 R2.
    destruct (run_good _ _ _ _ OK1 (inv_init S) R1) as (I1 & _ & L1).
    destruct (run_good _ _ _ _ OK2 I1 R2) as (I2 & (SA & SB & SL) & _).
    repeat split; auto.
    - intros NL. destruct (last_load h1); [tauto|congruence].
    - intros. eapply (inv_inj S st1 I1); eauto.
    - intros. eapply ext_nth; eauto.
  Qed.

  (* after any history, every declared function object holds the body of the version loaded last *)
  Theorem latest : forall h st o v, hist_ok S h -> run prog init_state h = Some (st, o) -> last_load h = Some v ->
    forall k a, key_ok S k -> fn_addr st k = Some a ->
      nth_error (funcs st) a = Some (FBody (body_of (beta v) k)).
  Proof.
    intros h st o v OK R LL. destruct (run_good _ _ _ _ OK (inv_init S) R) as (_ & _ & L).
    rewrite LL in L. destruct L as [LA _]. exact LA.
  Qed.

  (* ... so a call through a reference taken at ANY earlier point -- the function value itself, or a
     bound method made from it -- runs the body of the version loaded last *)
  Theorem latest_call : forall h1 h2 st1 o1 st2 o2 v, hist_ok S h1 -> hist_ok S h2 ->
    run prog init_state h1 = Some (st1, o1) -> run prog st1 h2 = Some (st2, o2) ->
    last_load (h1 ++ h2) = Some v ->
    forall k c, key_ok S k ->
      (fn_addr st1 k = Some c -> call_obs st2 (VFunc c) = Some (OCall (body_of (beta v) k) None)) /\
      (forall r a, nth_error (funcs st1) c = Some (FBound r a) -> fn_addr st1 k = Some a ->
                   call_obs st2 (VFunc c) = Some (OCall (body_of (beta v) k) (Some r))).
  Proof.
    intros h1 h2 st1 o1 st2 o2 v OK1 OK2 R1 R2 LL k c KO.
    assert (R : run prog init_state (h1 ++ h2) = Some (st2, (o1 ++ o2)%list)) by (rewrite run_app, R1, R2; auto).
    assert (OK : hist_ok S (h1 ++ h2)) by (apply Forall_app; auto).
    pose proof (latest _ _ _ _ OK R LL) as LA.
    destruct (identity _ _ _ _ _ _ OK1 OK2 R1 R2) as (SA & _ & _ & SB & _).
    split.
    - intros F. simpl. rewrite (LA k c KO (SA _ _ KO F)). reflexivity.
    - intros r a N F. simpl. rewrite (SB _ _ _ N). rewrite (LA k a KO (SA _ _ KO F)). reflexivity.
  Qed.
End Hist.

Lemma exec_list_func_defined : forall is st st' f, exec_list st is = Some st' ->
  Forall (fun i => writes i = Some f -> exists b, i = GlobalFunc f b) is ->
  (exists b, In (GlobalFunc f b) is) \/ (exists a, gget st f = VFunc a) ->
  exists a, gget st' f = VFunc a.
Proof.
  induction is as [|i is IH]; simpl; intros st st' f E W H.
  - inv E. destruct H as [[b []]|H]; exact H.
  - inv W. destruct (exec_instr st i) as [st1|] eqn:E1; try discriminate.
    apply (IH st1 st' f E H3).
    assert (D : writes i = Some f \/ writes i <> Some f).
    { destruct (writes i) as [n|]; [destruct (Z.eq_dec n f) as [->|]|]; auto; right; congruence. }
    destruct D as [Wf|Wf].
    + right. destruct (H2 Wf) as [b ->].
      apply exec_GlobalFunc in E1. destruct E1 as [[_ ->]|(a & G & _ & ->)].
      * rewrite gget_gset_same. eauto.
      * rewrite gget_set_funcs. eauto.
    + destruct H as [[b [->|HI]]|[a G]].
      * exfalso. apply Wf. reflexivity.
      * left. eauto.
      * right. exists a. rewrite <- G. apply gget_lookup. now apply (exec_frame _ _ _ E1).
Qed.

Definition wnames (is : list instr) : list name :=
  flat_map (fun i => match writes i with Some n => [n] | None => [] end) is.

Section State.
  Variable S : sig.
  Hypothesis WF : wf_sig S.
  Variable B : bodies.

  Lemma wnames_version : wnames (version_of S B) = (tnames S ++ sfuncs S ++ vnames S)%list.
  Proof.
    assert (T : wnames (Ts S) = tnames S) by (unfold Ts, tnames; induction (stypes S); simpl; congruence).
    assert (M : wnames (Ms S B) = []) by (unfold Ms; induction (smethods S); simpl; auto).
    assert (F : wnames (Fs S B) = sfuncs S) by (unfold Fs; induction (sfuncs S); simpl; congruence).
    assert (V : wnames (Vs S) = vnames S) by (unfold Vs, vnames; induction (svars S) as [|[] ? IH]; simpl; congruence).
    rewrite version_of_eq. unfold wnames in *. now rewrite !flat_map_app, T, M, F, V.
  Qed.

  (* a Load seen from one of its instructions: no other instruction writes the name it writes *)
  Lemma load_at : forall l1 i l2 x st st', version_of S B = (l1 ++ i :: l2)%list -> writes i = Some x ->
    exec_list st (version_of S B) = Some st' ->
    exists sa sb, exec_list st l1 = Some sa /\ exec_instr sa i = Some sb /\ exec_list sb l2 = Some st' /\
      Forall (fun j => writes j <> Some x) l1 /\ Forall (fun j => writes j <> Some x) l2.
  Proof.
    intros l1 i l2 x st st' EQ W E.
    assert (NI : ~ In x (wnames (l1 ++ l2))).
    { pose proof (wf_names S WF) as ND. rewrite <- wnames_version, EQ in ND.
      unfold wnames in *. rewrite flat_map_app in *. simpl in ND. rewrite W in ND. now apply NoDup_remove_2 in ND. }
    rewrite EQ, exec_list_app in E. destruct (exec_list st l1) as [sa|] eqn:E1; try discriminate.
    simpl in E. destruct (exec_instr sa i) as [sb|] eqn:EB; try discriminate.
    exists sa, sb. do 3 (split; auto).
    split; apply Forall_forall; intros j HJ WJ; apply NI, in_flat_map; exists j; rewrite WJ, in_app_iff; simpl; auto.
  Qed.

  Lemma var_split : forall d, In d (svars S) -> exists v1 v2, svars S = (v1 ++ d :: v2)%list /\
    version_of S B = ((Ts S ++ Ms S B ++ Fs S B ++ map vinstr v1) ++ vinstr d :: map vinstr v2)%list /\
    writes (vinstr d) = Some (vname d).
  Proof.
    intros d HI. destruct (in_split _ _ HI) as (v1 & v2 & EQ). exists v1, v2. split; auto. split.
    - rewrite version_of_eq. unfold Vs. rewrite EQ, map_app. simpl. now rewrite <- !app_assoc.
    - destruct d; reflexivity.
  Qed.

  (* var n T: the current value survives the Load (a nil value is replaced by the zero value) *)
  Lemma load_zero : forall st st' n z, In (VZero n z) (svars S) -> exec_list st (version_of S B) = Some st' ->
    lookup n (globals st') = if is_nil (gget st n) then Some z else lookup n (globals st).
  Proof.
    intros st st' n z HI E. destruct (var_split _ HI) as (v1 & v2 & _ & EQ & W).
    destruct (load_at _ _ _ _ _ _ EQ W E) as (sa & sb & E1 & EB & E2 & W1 & W2). simpl in *.
    destruct (exec_list_frame _ _ _ E1) as (_ & _ & L1). destruct (exec_list_frame _ _ _ E2) as (_ & _ & L2).
    rewrite (L2 _ W2), <- (gget_lookup _ _ _ (L1 _ W1)), <- (L1 _ W1).
    destruct (is_nil (gget sa n)); inv EB; auto. apply glookup_gset_same.
  Qed.
  Theorem state_zero : forall st st' n z, In (VZero n z) (svars S) -> exec_list st (version_of S B) = Some st' ->
    gget st' n = if is_nil (gget st n) then z else gget st n.
  Proof.
    intros st st' n z HI E. unfold gget at 1 3. rewrite (load_zero _ _ _ _ HI E). now destruct (is_nil (gget st n)).
  Qed.

  (* var n = c: re-initialised *)
  Lemma load_const : forall st st' n z, In (VSet n (EArg (AConst z))) (svars S) ->
    exec_list st (version_of S B) = Some st' -> lookup n (globals st') = Some (VInt z).
  Proof.
    intros st st' n z HI E. destruct (var_split _ HI) as (v1 & v2 & _ & EQ & W).
    destruct (load_at _ _ _ _ _ _ EQ W E) as (sa & sb & _ & EB & E2 & _ & W2). simpl in *. inv EB.
    destruct (exec_list_frame _ _ _ E2) as (_ & _ & L2). rewrite (L2 _ W2). apply glookup_gset_same.
  Qed.
  Theorem state_const : forall st st' n z, In (VSet n (EArg (AConst z))) (svars S) ->
    exec_list st (version_of S B) = Some st' -> gget st' n = VInt z.
  Proof. intros st st' n z HI E. unfold gget. now rewrite (load_const _ _ _ _ HI E). Qed.

  (* var n = f: holds THE function object of f again -- from ANY machine state st (no invariant needed:
     GLOBALFUNC f either fails or leaves a function object in f, and nothing after it writes f) *)
  Lemma load_funcref : forall st st' n f, In (VSet n (EArg (APath (PGlobal f)))) (svars S) -> In f (sfuncs S) ->
    exec_list st (version_of S B) = Some st' ->
    lookup n (globals st') = Some (gget st' f) /\ exists a, gget st' f = VFunc a.
  Proof.
    intros st st' n f HI HF E.
    assert (D : exists a, gget st' f = VFunc a).
    { apply (exec_list_func_defined _ _ _ _ E).
      - eapply Forall_impl; [|exact (proj1 (version_ok S B))].
        intros i OKi Wi. destruct i; simpl in Wi, OKi; inv Wi; eauto; exfalso.
        + eapply (t_not_f S WF f); eauto.
        + eapply (f_not_v S WF f); eauto.
        + eapply (f_not_v S WF f); eauto.
      - left. exists (fbody B f). rewrite version_of_eq, !in_app_iff. do 2 right. left.
        apply (in_map (fun n0 => GlobalFunc n0 (fbody B n0))), HF. }
    split; [|exact D].
    destruct (var_split _ HI) as (v1 & v2 & SV & EQ & W).
    destruct (load_at _ _ _ _ _ _ EQ W E) as (sa & sb & _ & EB & E2 & _ & W2). simpl in W2, EB. inv EB.
    (* the variables are initialised last, and none of them is named f *)
    assert (V : forall x, In x (svars S) -> vname x <> f).
    { intros x IX <-. apply (f_not_v S WF (vname x) HF), in_map, IX. }
    assert (WF2 : Forall (fun i => writes i <> Some f) (map vinstr v2)).
    { apply Forall_forall. intros i II. apply in_map_iff in II. destruct II as (x & <- & II).
      assert (IX : In x (svars S)) by (rewrite SV; apply in_or_app; right; right; exact II).
      specialize (V x IX). destruct x; simpl in *; congruence. }
    destruct (exec_list_frame _ _ _ E2) as (_ & _ & L2).
    rewrite (L2 _ W2), (gget_lookup _ _ _ (L2 _ WF2)), gget_gset_other by exact (not_eq_sym (V _ HI)).
    apply glookup_gset_same.
  Qed.
  Theorem state_funcref : forall st st' n f, In (VSet n (EArg (APath (PGlobal f)))) (svars S) -> In f (sfuncs S) ->
    exec_list st (version_of S B) = Some st' ->
    gget st' n = gget st' f /\ exists a, gget st' f = VFunc a.
  Proof.
    intros st st' n f HI HF E. destruct (load_funcref _ _ _ _ HI HF E) as [L D]. split; auto.
    unfold gget at 1. now rewrite L.
  Qed.

  (* a Load never touches what the host keeps, nor any existing instance *)
  Theorem state_objects : forall st st', exec_list st (version_of S B) = Some st' ->
    slots st' = slots st /\ exists y, (insts st' = insts st ++ y)%list.
  Proof. intros st st' E. destruct (exec_list_frame _ _ _ E) as (SL & IN & _). auto. Qed.
End State.
