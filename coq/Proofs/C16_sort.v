(* C16: treeSort is THE stable descending sort, hence hoistable declarations may be permuted and
   repartitioned over files without changing what the compiler sees class by class. *)
From Coq Require Import ZArith List String Bool Lia Permutation Sorted.
From GV Require Import Model.TreeSort.
Import ListNotations.
Open Scope Z_scope.
Open Scope list_scope.

Section Spec.
  Context {A : Type}.
  Variable prio : A -> Z.
  Notation tree_sort := (tree_sort prio).

  Notation R := (fun a b : A => prio b <= prio a).
  Notation fp p := (fun x : A => prio x =? p).

  Lemma insert_perm : forall x l, Permutation (insert_desc prio x l) (x :: l).
  Proof.
    intros x l; induction l as [|y r IHr]; simpl; [reflexivity|].
    destruct (prio y <=? prio x); [reflexivity|].
    rewrite IHr. apply perm_swap.
  Qed.

  Theorem sort_perm : forall l, Permutation (tree_sort l) l.
  Proof.
    intros l; induction l as [|x l IHl]; simpl; [reflexivity|].
    rewrite insert_perm, IHl. reflexivity.
  Qed.

  Lemma insert_sorted : forall x l, StronglySorted R l -> StronglySorted R (insert_desc prio x l).
  Proof.
    intros x l HS; induction HS as [|y r HSr IHr HF]; simpl.
    - constructor; constructor.
    - destruct (Z.leb_spec (prio y) (prio x)) as [E|E]; constructor.
      + constructor; assumption.
      + constructor; [exact E|]. revert HF. apply Forall_impl. intros z Hz. lia.
      + exact IHr.
      + rewrite insert_perm. constructor; [lia | exact HF].
  Qed.

  Theorem sort_sorted : forall l, StronglySorted (fun a b => prio b <= prio a) (tree_sort l).
  Proof.
    intros l; induction l as [|x l IHl]; simpl.
    - constructor.
    - apply insert_sorted, IHl.
  Qed.

  (* insertion moves x only past nodes of strictly higher priority, so a filter that stays inside one
     priority level cannot tell it from consing *)
  Lemma filter_insert_level : forall (Q : A -> bool) p, (forall x, Q x = true -> prio x = p) ->
    forall x l, filter Q (insert_desc prio x l) = filter Q (x :: l).
  Proof.
    intros Q p HQ x l; induction l as [|y r IHr]; simpl; [reflexivity|].
    destruct (Z.leb_spec (prio y) (prio x)) as [E|E]; [reflexivity|].
    simpl. rewrite IHr. simpl.
    destruct (Q y) eqn:Ey, (Q x) eqn:Ex; try reflexivity.
    apply HQ in Ey, Ex. lia.
  Qed.

  Lemma sort_stable_level : forall (Q : A -> bool) p, (forall x, Q x = true -> prio x = p) ->
    forall l, filter Q (tree_sort l) = filter Q l.
  Proof.
    intros Q p HQ l; induction l as [|x l IHl]; simpl; [reflexivity|].
    rewrite (filter_insert_level Q p HQ). simpl. rewrite IHl. reflexivity.
  Qed.

  (* stable: elements of equal priority keep their relative order *)
  Theorem sort_stable : forall (p : Z) l,
    filter (fun x => prio x =? p) (tree_sort l) = filter (fun x => prio x =? p) l.
  Proof.
    intros p. apply (sort_stable_level _ p). intros x. apply Z.eqb_eq.
  Qed.

  Lemma filter_rev : forall (P : A -> bool) l, filter P (rev l) = rev (filter P l).
  Proof.
    intros P l; induction l as [|x l IHl]; simpl; [reflexivity|].
    rewrite filter_app, IHl. simpl. destruct (P x); simpl; [reflexivity | apply app_nil_r].
  Qed.

  Lemma filter_comm : forall (P Q : A -> bool) l, filter P (filter Q l) = filter Q (filter P l).
  Proof.
    intros P Q l; induction l as [|x l IHl]; simpl; [reflexivity|].
    destruct (P x) eqn:EP; destruct (Q x) eqn:EQ; simpl; rewrite ?EP, ?EQ, IHl; reflexivity.
  Qed.

  Lemma sorted_app_ge : forall l1 x l2 y,
    StronglySorted R (l1 ++ x :: l2) -> In y (x :: l2) -> prio y <= prio x.
  Proof.
    intros l1 x l2 y; induction l1 as [|a l1 IH]; simpl; intros HS Hy;
      apply StronglySorted_inv in HS as [HS HF].
    - destruct Hy as [<-|Hy]; [reflexivity|].
      rewrite Forall_forall in HF. exact (HF y Hy).
    - exact (IH HS Hy).
  Qed.

  Lemma level_In : forall l1 l2 z,
    filter (fp (prio z)) l1 = filter (fp (prio z)) l2 -> In z l1 -> In z l2.
  Proof.
    intros l1 l2 z HF Hz. apply (filter_In (fp (prio z))). rewrite <- HF.
    apply filter_In. split; [exact Hz | apply Z.eqb_refl].
  Qed.

  Lemma sorted_filters_eq : forall l1 l2,
    StronglySorted R l1 -> StronglySorted R l2 ->
    (forall p, filter (fp p) l1 = filter (fp p) l2) -> l1 = l2.
  Proof.
    intros l1; induction l1 as [|x r1 IH]; intros [|y r2] HS1 HS2 HF.
    - reflexivity.
    - destruct (level_In _ _ y (eq_sym (HF _)) (in_eq _ _)).
    - destruct (level_In _ _ x (HF _) (in_eq _ _)).
    - assert (Hxy : prio x = prio y).
      { apply Z.le_antisymm.
        - apply (sorted_app_ge [] y r2 x HS2), (level_In _ _ x (HF _)), in_eq.
        - apply (sorted_app_ge [] x r1 y HS1), (level_In _ _ y (eq_sym (HF _))), in_eq. }
      pose proof (HF (prio x)) as Hx. simpl in Hx. rewrite <- Hxy, Z.eqb_refl in Hx.
      injection Hx as <- _.
      f_equal. apply IH; [apply (StronglySorted_inv HS1) | apply (StronglySorted_inv HS2) |].
      intros q. specialize (HF q). simpl in HF.
      destruct (prio x =? q); [injection HF; trivial | exact HF].
  Qed.

  (* sortedness and stability determine the result, so the model equals Go's sort.SliceStable, whose
     contract is: a sorted permutation that keeps equal elements in their original order.  That l' is a
     permutation of l need not be assumed: it follows from the equations of the second premise. *)
  Theorem sort_unique : forall l l',
    StronglySorted (fun a b => prio b <= prio a) l' ->
    (forall p, filter (fun x => prio x =? p) l' = filter (fun x => prio x =? p) l) ->
    l' = tree_sort l.
  Proof.
    intros l l' HS HF. apply sorted_filters_eq; [exact HS | apply sort_sorted |].
    intros p. rewrite HF, sort_stable. reflexivity.
  Qed.

  Lemma sorted_filter : forall (P : A -> bool) l, StronglySorted R l -> StronglySorted R (filter P l).
  Proof.
    intros P l HS; induction HS as [|y r HSr IHr HF]; simpl; [constructor|].
    destruct (P y); [|exact IHr].
    constructor; [exact IHr|].
    apply (incl_Forall (incl_filter P r)), HF.
  Qed.

  Lemma filter_sort_comm : forall (P : A -> bool) l, filter P (tree_sort l) = tree_sort (filter P l).
  Proof.
    intros P l. apply sort_unique.
    - apply sorted_filter, sort_sorted.
    - intros p. rewrite filter_comm, sort_stable. apply filter_comm.
  Qed.

  (* [hoist x = true] for function, method and type declarations.
     Two source layouts l and l' are hoist-equivalent when the non-hoistable nodes form the same sequence
     and, inside every priority level, the hoistable nodes are a permutation of each other. *)
  Variable hoist : A -> bool.
  Definition hoist_equiv (l l' : list A) : Prop :=
    filter (fun x => negb (hoist x)) l = filter (fun x => negb (hoist x)) l' /\
    forall p, Permutation (filter (fun x => hoist x && (prio x =? p)) l) (filter (fun x => hoist x && (prio x =? p)) l').

  Theorem sort_hoist_invariant : forall l l', hoist_equiv l l' ->
    (* the non-hoistable nodes (const, var, statements, init ...) reach the compiler in the same order *)
    filter (fun x => negb (hoist x)) (tree_sort l) = filter (fun x => negb (hoist x)) (tree_sort l') /\
    (* level by level the hoistable nodes are the same up to order *)
    (forall p, Permutation (filter (fun x => hoist x && (prio x =? p)) (tree_sort l))
                           (filter (fun x => hoist x && (prio x =? p)) (tree_sort l'))) /\
    (* and a node of higher priority always precedes a node of lower priority *)
    (forall l1 x l2 y l3, tree_sort l = l1 ++ x :: l2 ++ y :: l3 -> prio y <= prio x).
  Proof.
    intros l l' [Hnh Hh]. split; [|split].
    - rewrite !filter_sort_comm, Hnh. reflexivity.
    - intros p.
      assert (HQ : forall x, hoist x && (prio x =? p) = true -> prio x = p).
      { intros x Hx. apply andb_prop in Hx. apply Z.eqb_eq, Hx. }
      rewrite !(sort_stable_level _ p HQ). apply Hh.
    - intros l1 x l2 y l3 Heq. apply (sorted_app_ge l1 x (l2 ++ y :: l3)).
      + rewrite <- Heq. apply sort_sorted.
      + right. apply in_elt.
  Qed.
End Spec.
