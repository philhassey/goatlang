(* C11, part 2: the goatlang slice layer (Model/Slice.v) against Go's slices (GoSpec/GoSlice.v,
   GoSpec/GoSliceHist.v): the representation invariant Inv and the abstraction abs to the Go-side state, kept by
   every operation of a history that meets hist_ok; the typing invariant TInv for histories that meet hist_typed;
   at the end the findings F1-F3, where the faithful model and Go differ, each with a witness. *)
From Coq Require Import ZArith List Bool Lia Arith.
From GV Require Import GoSpec.GoPrim GoSpec.GoSlice GoSpec.GoSliceHist Gen.ValueOps_gen Model.Slice
  Proofs.C04_ops Proofs.C11_goslice.
Import ListNotations.
Open Scope Z_scope.

(* element types of the property's scope: the scalar types and string (tags 2..127: not nil,
   not the untyped-constant tag, not a nillable reference type) *)
Definition scalar (t : Z) : Prop := 1 < t < nillableMin.

(* what a cell of a backing array can hold: a typed non-nil value, or Value{} *)
Definition sok (v : value) : Prop := (vt v <> untypedInt /\ vt v <> TypeNil) \/ v = nilV.
Definition store_ok (st : vstore) : Prop := forall a i v, cell st a i = Some v -> sok v.

(* representation invariant of a state: every variable's descriptor is well-formed and has a
   scalar element type; no cell holds an untyped constant or a nil-tagged value other than Value{} *)
Definition Inv (s : state) : Prop :=
  store_ok (fst s) /\
  forall x, (x < length (snd s))%nat ->
            wf_slice (fst s) (gdata (pget (snd s) x)) /\ scalar (elemty (pget (snd s) x)).

(* abstraction to the Go-side state: the store as it is; per variable the element type and
   the []Value descriptor (a nil Value and a non-nil Value with nil data both denote Go's nil) *)
Definition abs_var (g : gval) : tvar := (elemty g, gdata g).
Definition abs (s : state) : gstate := (fst s, map abs_var (snd s)).
Definition abs_res (r : res state) : res gstate :=
  match r with Ok s => Ok (abs s) | Panic => Panic | Unmodelled => Unmodelled end.

Definition op_wf (n : nat) (o : op) : Prop :=
  match o with
  | ONil x t | OLit x t _ | OMake x t _ => (x < n)%nat /\ scalar t
  | OSlice x y _ _ | OCopy x y => (x < n)%nat /\ (y < n)%nat
  | OSet x _ _ | OCopyStr x _ => (x < n)%nat
  | OAppend x y _ sp _ => (x < n)%nat /\ (y < n)%nat /\ match sp with SpV z => (z < n)%nat | _ => True end
  end.
(* append(y) / append(y, z...) with NO value to add to a nil Value y is the one statement whose
   result differs from Go (Go: nil; goatlang: an empty non-nil slice on a new array) *)
Definition op_nilsafe (s : state) (o : op) : Prop :=
  match o with
  | OAppend _ y vs sp _ =>
      g_isnil (pget (snd s) y) = true ->
      (vs ++ spread_items (fst s) (spread_of (snd s) sp))%list <> []
  | _ => True
  end.
Fixpoint hist_ok (s : state) (os : list op) : Prop :=
  match os with
  | [] => True
  | o :: r => op_wf (length (snd s)) o /\ op_nilsafe s o /\ hist_ok (step s o) r
  end.

(* the host-side operations are Go's operations on the data; a nil Value acts as the nil descriptor *)
Lemma Value_Len_data g : Value_Len g = slen (gdata g).
Proof. destruct g; reflexivity. Qed.
Lemma get_refines st g k : Value_Get st g k = index st (gdata g) (Value_Int k).
Proof. destruct g; [symmetry; apply index_out; cbn; lia|reflexivity]. Qed.
Lemma Value_Set_data st g k v :
  Value_Set st g k v = set st (gdata g) (Value_Int k) (Value_assign v (elemty g)).
Proof. destruct g; reflexivity. Qed.
Lemma Value_Slice_data g i j :
  Value_Slice g i j = match reslice (gdata g) i j with
                      | Ok d => Ok (GSl (elemty g) d) | Panic => Panic | Unmodelled => Unmodelled
                      end.
Proof. destruct g; cbn [Value_Slice gdata elemty reslice]; [destruct (_ && _)|]; reflexivity. Qed.

Lemma vt_mkV t n p : vt (mkV t n p) = t.
Proof. reflexivity. Qed.

Lemma sok_fix t v : scalar t -> sok v -> Value_assign v t = v.
Proof.
  intros [H1 H2] [[A1 A2]| ->].
  - apply assign_keeps; assumption.
  - unfold Value_assign, nilV. cbn [vt vnum vval].
    assert ((0 =? t) = false) as -> by (apply Z.eqb_neq; lia).
    change (0 =? untypedInt) with false. change (negb (0 =? TypeNil)) with false. cbv iota.
    assert ((t >=? nillableMin) = false) as -> by (rewrite Z.geb_leb; apply Z.leb_gt; lia).
    reflexivity.
Qed.

Lemma assign_sok t v : scalar t -> sok (Value_assign v t).
Proof.
  intros [H1 H2]. unfold nillableMin in H2. unfold Value_assign, sok, untypedInt, TypeNil.
  destruct (Z.eqb_spec (vt v) t) as [E|_]; [left; lia|].
  destruct (Z.eqb_spec (vt v) 1) as [_|E1].
  { (* an untyped constant becomes a value of type t, or an int32 *)
    left. repeat match goal with |- context [if ?c then _ else _] => destruct c end;
      rewrite vt_mkV; unfold TypeInt32; lia. }
  destruct (Z.eqb_spec (vt v) 0) as [_|E0]; cbn [negb]; [|left; auto].
  unfold nillableMin. assert ((t >=? 128) = false) as -> by (rewrite Z.geb_leb; apply Z.leb_gt; lia).
  right. reflexivity.
Qed.

(* values that Go's type checker lets one store into a []T *)
Definition numeric_tag (t : Z) : Prop :=
  t = TypeFloat64 \/ t = TypeInt32 \/ t = TypeUint32 \/ t = TypeInt8 \/ t = TypeUint8.
Definition compat (t : Z) (v : value) : Prop := vt v = t \/ (vt v = untypedInt /\ numeric_tag t).

Lemma assign_compat t v : compat t v -> vt (Value_assign v t) = t.
Proof.
  intros [H|[H N]]; unfold Value_assign.
  - apply Z.eqb_eq in H as H'. rewrite H'. exact H.
  - rewrite H. destruct (untypedInt =? t) eqn:E; [apply Z.eqb_eq in E; cbn [vt]; congruence|].
    rewrite Z.eqb_refl.
    destruct N as [-> | [-> | [-> | [-> | ->]]]]; reflexivity.
Qed.

Lemma assign_newZero t : Value_assign (fn_newZero t) t = fn_newZero t.
Proof.
  unfold Value_assign, fn_newZero. destruct (Z.eqb_spec t TypeString) as [->|]; [reflexivity|].
  rewrite vt_mkV, Z.eqb_refl. reflexivity.
Qed.
Lemma vt_newZero t : vt (fn_newZero t) = t.
Proof. unfold fn_newZero. destruct (Z.eqb_spec t TypeString) as [->|]; reflexivity. Qed.
Lemma sok_newZero t : scalar t -> sok (fn_newZero t).
Proof. intros [H1 H2]. left. rewrite vt_newZero. unfold untypedInt, TypeNil. lia. Qed.
Lemma sok_Byte b : sok (fn_Byte b).
Proof. left. split; discriminate. Qed.
Lemma sok_nilV : sok nilV.
Proof. right. reflexivity. Qed.

Lemma value_type_sliceType t : 0 <= t -> Type_value (fn_sliceType t) = t.
Proof.
  intros H. unfold Type_value, fn_sliceType, typeShift, TypeSlice.
  rewrite Z.shiftr_lor, Z.shiftr_shiftl_l by lia. rewrite Z.sub_diag, Z.shiftl_0_r.
  change (Z.shiftr 128 8) with 0. apply Z.lor_0_r.
Qed.

Lemma pget_pset p x g y : pget (pset p x g) y = if (y =? x)%nat && (x <? length p)%nat then g else pget p y.
Proof. apply nth_write_one. Qed.
Lemma length_pset p x g : length (pset p x g) = length p.
Proof. apply write_length. Qed.
Lemma abs_pset p x g : map abs_var (pset p x g) = tset (map abs_var p) x (abs_var g).
Proof. exact (map_write abs_var p x [g]). Qed.
Lemma tget_abs p x : tget (map abs_var p) x = abs_var (pget p x).
Proof. exact (map_nth abs_var p (GNil 0) x). Qed.
Lemma pget_repeat g n x : (x < n)%nat -> pget (repeat g n) x = g.
Proof. intros H. unfold pget. rewrite nth_nth_error, nth_error_repeat by exact H. reflexivity. Qed.

Lemma cell_out (st : vstore) a i : (length st <= a)%nat -> cell st a i = None.
Proof. intros H. destruct (cell st a i) eqn:E; [apply cell_lt in E; lia|reflexivity]. Qed.

Lemma store_ok_app st x : store_ok st -> Forall sok x -> store_ok (st ++ [x]).
Proof. exact (store_all_app (fun _ => sok) st x). Qed.
Lemma store_ok_write st a k vs : store_ok st -> Forall sok vs -> store_ok (arr_write st a k vs).
Proof. exact (store_all_write (fun _ => sok) st a k vs). Qed.
Lemma cells_sok st s : store_ok st -> Forall sok (cells st s).
Proof. destruct s; [constructor|apply (cells_all (fun _ => sok))]. Qed.

Lemma Forall_firstn {A} (P : A -> Prop) n l : Forall P l -> Forall P (firstn n l).
Proof. intros H. revert n. induction H; intros [|n]; cbn; constructor; auto. Qed.
Lemma Forall_repeat {A} (P : A -> Prop) x n : P x -> Forall P (repeat x n).
Proof. intros H. induction n; cbn; constructor; auto. Qed.
Lemma Forall_map_all {A B} (P : B -> Prop) (f : A -> B) l : (forall a, P (f a)) -> Forall P (map f l).
Proof. intros H. apply Forall_map, Forall_forall. intros a _. apply H. Qed.

Lemma map_assign_fix t vs : scalar t -> Forall sok vs -> map (assign_to t) vs = vs.
Proof.
  intros S F. induction F as [|v vs Hv _ IH]; [reflexivity|]. cbn [map]. rewrite IH. f_equal.
  apply sok_fix; assumption.
Qed.
Lemma map_assign_sok t vs : scalar t -> Forall sok (map (assign_to t) vs).
Proof. intros S. apply Forall_map_all. intros v. apply assign_sok, S. Qed.

Lemma arr_write_same (st : vstore) a k vs :
  (forall i, (i < length vs)%nat -> cell st a (k + i) = nth_error vs i) -> arr_write st a k vs = st.
Proof.
  intros H. unfold arr_write. rewrite (write_same (array st a) k vs H).
  destruct (Nat.lt_ge_cases a (length st)) as [Ha|Ha]; [|apply write_nofit; cbn; lia].
  apply write_same. intros [|i] Hi; [|cbn in Hi; lia]. rewrite Nat.add_0_r. apply nth_error_nth'. exact Ha.
Qed.

Lemma NewSlice_fix st t d : store_ok st -> wf_slice st d -> scalar t -> NewSlice st t d = (st, GSl t d).
Proof.
  intros Hs W S. unfold NewSlice, newSlice. f_equal. destruct d as [|a o l c]; [reflexivity|].
  rewrite map_assign_fix by (try apply cells_sok; assumption).
  apply arr_write_same. intros i Hi. rewrite length_cells in Hi by exact W. symmetry. apply nth_error_cells, Hi.
Qed.

Lemma NewSlice_last (st : vstore) x r t c :
  NewSlice (st ++ [x ++ r])%list t (SMk (length st) 0 (length x) c) =
  ((st ++ [map (assign_to t) x ++ r])%list, GSl t (SMk (length st) 0 (length x) c)).
Proof.
  unfold NewSlice, newSlice. f_equal. cbn [cells]. rewrite array_app_new. cbn [skipn].
  rewrite firstn_app, firstn_all, Nat.sub_diag, app_nil_r.
  unfold arr_write. rewrite array_app_new, (write_middle [] x r) by (symmetry; apply map_length).
  exact (write_middle st [x ++ r]%list [] [map (assign_to t) x ++ r]%list eq_refl).
Qed.

Lemma code_newslice_eq st t vs :
  code_newslice st t vs =
  ((st ++ [map (assign_to t) vs])%list, GSl t (SMk (length st) 0 (length vs) (length vs))).
Proof.
  unfold code_newslice, lit. pose proof (NewSlice_last st vs [] t (length vs)) as H.
  rewrite !app_nil_r in H. exact H.
Qed.

Lemma host_NewSlice_eq st t vs extra :
  host_NewSlice st t vs extra =
  ((st ++ [map (assign_to t) vs ++ repeat nilV extra])%list, GSl t (SMk (length st) 0 (length vs) (length vs + extra))).
Proof. apply NewSlice_last. Qed.

Lemma map_assign_repeat t n : map (assign_to t) (repeat (fn_newZero t) n) = repeat (fn_newZero t) n.
Proof. induction n as [|n IH]; [reflexivity|]. cbn [repeat map]. rewrite IH. f_equal. apply assign_newZero. Qed.

Lemma code_make_eq st t nv :
  code_make st t nv =
  match make_ st (Value_Int nv) (fn_newZero t) with
  | Ok (st', d) => Ok (st', GSl t d) | Panic => Panic | Unmodelled => Unmodelled
  end.
Proof.
  unfold code_make, make_. destruct (Value_Int nv <? 0); [reflexivity|]. f_equal.
  set (n := Z.to_nat (Value_Int nv)).
  pose proof (NewSlice_last st (repeat (fn_newZero t) n) [] t n) as H.
  rewrite repeat_length, !app_nil_r, map_assign_repeat in H. exact H.
Qed.

(* sliceT.Append = Go's append of the values converted to the element type: the re-assignment
   of the elements that were already there is harmless *)
Lemma append_refines grow st t d items : store_ok st -> wf_slice st d -> scalar t ->
  Value_Append grow st (GSl t d) items 0 =
  (fst (append_ nilV grow st d (map (assign_to t) items)),
   GSl t (snd (append_ nilV grow st d (map (assign_to t) items)))).
Proof.
  intros Hs W S. cbn [Value_Append].
  pose proof (cells_append nilV grow st d items W) as C. pose proof (length_cells st d W) as Lc.
  pose proof (map_assign_fix t (cells st d) S (cells_sok st d Hs)) as Fx.
  unfold append_ in *. rewrite map_length.
  destruct (slen d + length items <=? scap d)%nat eqn:E; cbn [fst snd] in *.
  - apply Nat.leb_le in E. destruct d as [|a o l c]; [reflexivity|]. cbn [slen scap fst snd] in *.
    unfold NewSlice, newSlice. f_equal. rewrite C, map_app, Fx.
    set (items' := map (assign_to t) items).
    assert (Li : length items' = length items) by apply map_length. destruct W as (Ha & Hl & Hc).
    (* cell by cell: the old elements are rewritten with themselves, the new ones with their conversion *)
    apply store_ext_cell; [rewrite !length_arr_write; reflexivity|]. intros b i.
    destruct (Nat.eq_dec b a) as [->|N]; [|rewrite !cell_write_out by auto; reflexivity].
    destruct (in_or_out o l i) as [D|D]; [|destruct (in_or_out (o + l) (length items) i) as [D'|D']].
    + rewrite cell_write_in, nth_error_app1, nth_error_cells, (cell_write_out st)
        by (rewrite ?length_arr_write, ?array_length_arr_write, ?app_length, ?Lc, ?Li; lia).
      f_equal. lia.
    + rewrite !cell_write_in, nth_error_app2
        by (rewrite ?length_arr_write, ?array_length_arr_write, ?app_length, ?Lc, ?Li; lia).
      f_equal. lia.
    + rewrite !cell_write_out by (rewrite ?app_length, ?Lc, ?Li; lia). reflexivity.
  - set (n := (slen d + length items)%nat). set (c' := Nat.max n (grow (scap d) n)).
    pose proof (NewSlice_last st (cells st d ++ items) (repeat nilV (c' - n)) t c') as H.
    rewrite app_length, Lc, map_app, Fx, <- !app_assoc in H. exact H.
Qed.

(* APPEND on a nil Value: a new array holding the values converted to the declared element type;
   nothing that existed changes *)
Lemma nil_append grow st t items :
  code_append grow st (GNil t) items =
  ((st ++ [map (assign_to (Type_value t)) items])%list,
   GSl (Type_value t) (SMk (length st) 0 (length items) (length items))).
Proof. apply code_newslice_eq. Qed.

Lemma store_ok_append grow st d items : store_ok st -> Forall sok items ->
  store_ok (fst (append_ nilV grow st d items)).
Proof.
  intros Hs F. unfold append_. destruct (slen d + length items <=? scap d)%nat.
  - destruct d; cbn [fst]; [exact Hs|apply store_ok_write; assumption].
  - cbn [fst]. apply store_ok_app; [exact Hs|].
    repeat (apply Forall_app; split); [apply cells_sok; exact Hs|exact F|apply Forall_repeat, sok_nilV].
Qed.

(* A statement does one of three things to a state, or two of them: it binds a variable to a
   descriptor, it writes values into an existing array, it allocates an array and binds a variable
   to a descriptor at its start.  Inv here, and TInv below, are each shown to be kept by the three. *)

Lemma inv_pset st p x g : Inv (st, p) -> wf_slice st (gdata g) -> scalar (elemty g) -> Inv (st, pset p x g).
Proof.
  intros [Hs HI] Wg Sg. split; [exact Hs|]. cbn [fst snd] in *. intros y Hy.
  rewrite length_pset in Hy. rewrite pget_pset. destruct (_ && _); auto.
Qed.
Lemma inv_store st p st' : Inv (st, p) -> store_ok st' ->
  (forall s, wf_slice st s -> wf_slice st' s) -> Inv (st', p).
Proof.
  intros [_ HI] Hs Hw. split; [exact Hs|]. cbn [fst snd] in *. intros y Hy.
  destruct (HI y Hy). split; auto.
Qed.
Lemma inv_write st p a k vs : Inv (st, p) -> Forall sok vs -> Inv (arr_write st a k vs, p).
Proof.
  intros HI F. apply (inv_store st); [exact HI|apply store_ok_write; [apply HI|exact F]|].
  intros s. apply wf_arr_write.
Qed.
Lemma inv_copy st p d vs : Inv (st, p) -> Forall sok vs -> Inv (fst (copy_vals st d vs), p).
Proof. intros HI F. destruct d; [exact HI|]. apply inv_write; [exact HI|apply Forall_firstn, F]. Qed.
Lemma inv_alloc st p x t arr l c :
  Inv (st, p) -> Forall sok arr -> (l <= c <= length arr)%nat -> scalar t ->
  Inv ((st ++ [arr])%list, pset p x (GSl t (SMk (length st) 0 l c))).
Proof.
  intros HI F H S. apply inv_pset; [|apply wf_new; lia|exact S].
  apply (inv_store st); [exact HI|apply store_ok_app; [apply HI|exact F]|]. intros s. apply wf_app.
Qed.

Lemma step_length s o : length (snd (step s o)) = length (snd s).
Proof.
  destruct s as [st p]. unfold step.
  destruct o; cbn [step_res];
    [|destruct (code_newslice _ _ _)|destruct (code_make _ _ _) as [[]| |]|destruct (code_slice _ _ _)
     |destruct (code_set _ _ _ _)|destruct (code_append _ _ _ _)| |];
    first [apply length_pset|reflexivity].
Qed.

Lemma inv_kept s o : Inv s -> op_wf (length (snd s)) o -> Inv (step s o).
Proof.
  destruct s as [st p]. intros HI Hw. pose proof HI as [Hs Hp]. cbn [fst snd] in *.
  unfold step. destruct o as [x t|x t vs|x t nv|x y a b|x k v|x y vs sp c|x y|x bs]; cbn [step_res op_wf] in *.
  - destruct Hw as [Hx St]. apply inv_pset; [exact HI|exact I|].
    cbn [elemty]. rewrite value_type_sliceType by (destruct St; lia). exact St.
  - rewrite code_newslice_eq.
    apply inv_alloc; [exact HI|apply map_assign_sok, Hw|rewrite map_length; lia|apply Hw].
  - rewrite code_make_eq. unfold make_. destruct (Value_Int nv <? 0); [exact HI|].
    apply inv_alloc; [exact HI|apply Forall_repeat, sok_newZero, Hw|rewrite repeat_length; lia|apply Hw].
  - destruct (Hp y (proj2 Hw)) as [Wy Sy]. unfold code_slice. rewrite Value_Slice_data.
    destruct (reslice _ _ _) as [d'| |] eqn:R; try exact HI.
    apply inv_pset; [exact HI|exact (wf_reslice _ _ _ _ _ Wy R)|exact Sy].
  - unfold code_set. rewrite Value_Set_data. destruct (set st _ _ _) as [st'| |] eqn:E; try exact HI.
    apply set_Ok in E as (a & o & l & c & _ & _ & ->).
    apply inv_write; [exact HI|]. constructor; [apply assign_sok, (Hp x Hw)|constructor].
  - destruct Hw as (Hx & Hy & Hz). destruct (Hp y Hy) as [Wy Sy].
    set (items := (vs ++ _)%list). destruct (pget p y) as [t|t d]; cbn [gdata elemty] in *.
    + rewrite nil_append.
      apply inv_alloc; [exact HI|apply map_assign_sok, Sy|rewrite map_length; lia|exact Sy].
    + cbn [code_append]. rewrite append_refines by assumption.
      apply inv_pset; [|apply wf_append_new, Wy|exact Sy].
      apply (inv_store st); [exact HI|apply store_ok_append; [exact Hs|apply map_assign_sok, Sy]|].
      intros s. apply wf_append_old.
  - apply inv_copy; [exact HI|apply cells_sok, Hs].
  - apply inv_copy; [exact HI|apply Forall_map_all, sok_Byte].
Qed.

Lemma inv_step s o : Inv s -> op_wf (length (snd s)) o ->
  Inv (step s o) /\ length (snd (step s o)) = length (snd s).
Proof. intros HI Hw. exact (conj (inv_kept s o HI Hw) (step_length s o)). Qed.

Lemma abs_update st p x g : abs (st, pset p x g) = (st, tset (map abs_var p) x (abs_var g)).
Proof. unfold abs. cbn [fst snd]. rewrite abs_pset. reflexivity. Qed.

Lemma refine_step s o : Inv s -> op_wf (length (snd s)) o -> op_nilsafe s o ->
  exists cap, abs_res (step_res s o) = go_step_res cap (abs s) o.
Proof.
  destruct s as [st p]. intros [Hs Hp] Hw Hn. cbn [fst snd] in *.
  destruct o as [x t|x t vs|x t nv|x y a b|x k v|x y vs sp c|x y|x bs];
    cbn [step_res op_wf op_nilsafe go_step_res abs fst snd] in *.
  all: try rewrite !tget_abs.
  - exists 0%nat. destruct Hw as [Hx St]. cbn [abs_res]. rewrite abs_update. unfold abs_var. cbn [elemty gdata].
    rewrite value_type_sliceType by (destruct St; lia). reflexivity.
  - exists 0%nat. rewrite code_newslice_eq. cbn [abs_res lit]. rewrite abs_update, map_length. reflexivity.
  - exists 0%nat. rewrite code_make_eq. destruct (make_ st (Value_Int nv) (fn_newZero t)) as [[st' d]| |]; cbn [abs_res]; try reflexivity.
    rewrite abs_update. reflexivity.
  - exists 0%nat. unfold abs_var at 1. unfold code_slice. rewrite Value_Len_data, Value_Slice_data.
    destruct (reslice _ _ _); cbn [abs_res]; try reflexivity. rewrite abs_update. reflexivity.
  - exists 0%nat. unfold abs_var at 1. unfold code_set, assign_to. rewrite Value_Set_data.
    destruct (set st _ _ _); reflexivity.
  - destruct Hw as (Hx & Hy & Hz). destruct (Hp y Hy) as [Wy Sy].
    unfold abs_var at 1.
    assert (Ez : match sp with
                 | SpN => [] | SpV z => cells st (snd (tget (map abs_var p) z)) | SpS bs => map fn_Byte bs
                 end = spread_items st (spread_of p sp)).
    { destruct sp; [reflexivity|rewrite tget_abs; reflexivity|reflexivity]. }
    rewrite Ez. clear Ez. set (items := (vs ++ _)%list) in *.
    destruct (pget p y) as [t|t d] eqn:Ey; cbn [gdata elemty] in *.
    + (* Go allocates as well, since there is a value to add; it may pick exactly the needed capacity *)
      exists (length items). rewrite nil_append. cbn [abs_res]. rewrite abs_update.
      unfold append_. cbn [slen scap Nat.add]. rewrite map_length.
      destruct items as [|i0 items]; [contradiction (Hn eq_refl eq_refl)|]. cbn [length Nat.leb].
      rewrite Nat.max_id, Nat.sub_diag. cbn [cells repeat app]. rewrite app_nil_r. reflexivity.
    + exists c. cbn [code_append]. rewrite append_refines by assumption. cbn [abs_res]. rewrite abs_update.
      unfold abs_var. cbn [elemty gdata].
      destruct (append_ nilV (fun _ _ : nat => c) st d (map (assign_to t) items)). reflexivity.
  - exists 0%nat. reflexivity.
  - exists 0%nat. reflexivity.
Qed.

Lemma refine_run os : forall s, Inv s -> hist_ok s os -> go_run (abs s) os (abs (run s os)).
Proof.
  induction os as [|o os IH]; intros s HI Hh; [constructor|].
  destruct Hh as (Hw & Hn & Hr). destruct (refine_step s o HI Hw Hn) as [cap E].
  cbn [run fold_left]. apply (go_run_cons _ _ _ cap).
  assert (Es : go_step cap (abs s) o = abs (step s o)).
  { unfold go_step, step. rewrite <- E. destruct (step_res s o); reflexivity. }
  rewrite Es. apply IH; [apply inv_kept; assumption|exact Hr].
Qed.

Lemma inv_run os : forall s, Inv s -> hist_ok s os -> Inv (run s os).
Proof.
  induction os as [|o os IH]; intros s HI Hh; [exact HI|].
  destruct Hh as (Hw & Hn & Hr). cbn [run fold_left]. apply IH; [apply inv_kept; assumption|exact Hr].
Qed.

Lemma inv_init n : Inv ([], repeat (GNil (fn_sliceType TypeInt32)) n).
Proof.
  split; [exact (store_all_nil _)|]. cbn [fst snd]. intros x Hx. rewrite repeat_length in Hx.
  rewrite pget_repeat by exact Hx. split; [exact I|]. cbn. unfold scalar, nillableMin. lia.
Qed.

Definition gcapn (g : gval) : nat := scap (gdata g).

Lemma slice_out g i j : ~ (0 <= i <= j /\ j <= Z.of_nat (gcapn g)) -> Value_Slice g i j = Panic.
Proof. intros H. rewrite Value_Slice_data, reslice_out by exact H. reflexivity. Qed.

(* a cell of an array whose element type is t: a value of type t, or a cell nobody wrote *)
Definition tcell (t : Z) (v : value) : Prop := vt v = t \/ v = nilV.

(* typing invariant; aty = element type of every array (ghost) *)
Definition TInv (aty : list Z) (s : state) : Prop :=
  length aty = length (fst s) /\
  (forall a i v, cell (fst s) a i = Some v -> tcell (nth a aty 0) v) /\
  (forall x, (x < length (snd s))%nat ->
     match gdata (pget (snd s) x) with SNil => True | SMk a _ _ _ => nth a aty 0 = elemty (pget (snd s) x) end).

(* the values a statement stores are ones Go's type checker accepts for the destination *)
Definition op_typed (s : state) (o : op) : Prop :=
  let p := snd s in
  match o with
  | OLit _ t vs => Forall (compat t) vs
  | OSet x _ v => compat (elemty (pget p x)) v
  | OAppend _ y vs sp _ =>
      Forall (compat (elemty (pget p y))) vs /\
      match sp with
      | SpN => True
      | SpV z => elemty (pget p z) = elemty (pget p y)
      | SpS _ => elemty (pget p y) = TypeUint8
      end
  | OCopy x y => elemty (pget p y) = elemty (pget p x)
  | OCopyStr x _ => elemty (pget p x) = TypeUint8
  | _ => True
  end.
Fixpoint hist_typed (s : state) (os : list op) : Prop :=
  match os with
  | [] => True
  | o :: r => op_wf (length (snd s)) o /\ op_typed s o /\ hist_typed (step s o) r
  end.

Lemma assign_tcell t v : scalar t -> compat t v \/ tcell t v -> tcell t (Value_assign v t).
Proof.
  intros S [H|[H| ->]].
  - left. apply assign_compat. exact H.
  - left. apply assign_compat. left. exact H.
  - right. apply sok_fix; [exact S|apply sok_nilV].
Qed.
Lemma Forall_map_assign t vs : scalar t -> Forall (fun v => compat t v \/ tcell t v) vs ->
  Forall (tcell t) (map (assign_to t) vs).
Proof. intros S F. induction F; cbn [map]; constructor; auto. apply assign_tcell; assumption. Qed.

Lemma tinv_pset aty st p x g :
  TInv aty (st, p) ->
  match gdata g with SNil => True | SMk a _ _ _ => nth a aty 0 = elemty g end ->
  TInv aty (st, pset p x g).
Proof.
  intros (L & C & P) G. split; [exact L|split; [exact C|]]. cbn [fst snd] in *.
  intros y Hy. rewrite length_pset in Hy. rewrite pget_pset. destruct (_ && _); [exact G|exact (P y Hy)].
Qed.
Lemma tinv_write aty st p a k vs :
  TInv aty (st, p) -> Forall (tcell (nth a aty 0)) vs -> TInv aty (arr_write st a k vs, p).
Proof.
  intros (L & C & P) F. split; [|split]; cbn [fst snd] in *; [rewrite length_arr_write; exact L| |exact P].
  apply (store_all_write (fun a => tcell (nth a aty 0))); assumption.
Qed.
Lemma tinv_copy aty st p x vs : TInv aty (st, p) -> (x < length p)%nat ->
  Forall (tcell (elemty (pget p x))) vs -> TInv aty (fst (copy_vals st (gdata (pget p x)) vs), p).
Proof.
  intros HT Hx F. pose proof (proj2 (proj2 HT) x Hx) as Px. cbn [snd] in Px.
  destruct (gdata (pget p x)); [exact HT|]. apply tinv_write; [exact HT|]. rewrite Px. apply Forall_firstn, F.
Qed.
Lemma tinv_alloc aty st p x t arr l c :
  Inv (st, p) -> TInv aty (st, p) -> Forall (tcell t) arr ->
  TInv (aty ++ [t]) ((st ++ [arr])%list, pset p x (GSl t (SMk (length st) 0 l c))).
Proof.
  intros [_ HI] (L & C & P) F. cbn [fst snd] in *.
  assert (Old : forall a, (a < length st)%nat -> nth a (aty ++ [t]) 0 = nth a aty 0)
    by (intros; apply app_nth1; lia).
  assert (New : nth (length st) (aty ++ [t]) 0 = t) by (rewrite <- L; apply nth_middle).
  split; [|split]; cbn [fst snd].
  - rewrite !app_length, L. reflexivity.
  - apply (store_all_app (fun a => tcell (nth a (aty ++ [t]) 0))); [|rewrite New; exact F].
    intros a i v E. rewrite Old by exact (cell_lt _ _ _ _ E). exact (C a i v E).
  - intros y Hy. rewrite length_pset in Hy. rewrite pget_pset. destruct (_ && _); [exact New|].
    specialize (P y Hy). destruct (HI y Hy) as [W _].
    destruct (gdata (pget p y)); [exact I|]. rewrite Old by apply W. exact P.
Qed.

Lemma tcells aty st p x : TInv aty (st, p) -> (x < length p)%nat ->
  Forall (tcell (elemty (pget p x))) (cells st (gdata (pget p x))).
Proof.
  intros (L & C & P) Hx. cbn [fst snd] in *. specialize (P x Hx).
  destruct (gdata (pget p x)); [constructor|]. rewrite <- P.
  apply (cells_all (fun a => tcell (nth a aty 0))). exact C.
Qed.

Lemma tinv_step aty s o : Inv s -> TInv aty s -> op_wf (length (snd s)) o -> op_typed s o ->
  exists aty', TInv aty' (step s o).
Proof.
  destruct s as [st p]. intros HI HT Hw Ht. pose proof HI as [Hs Hp]. pose proof HT as (L & C & P).
  cbn [fst snd] in *. unfold step.
  destruct o as [x t|x t vs|x t nv|x y a b|x k v|x y vs sp c|x y|x bs]; cbn [step_res op_wf op_typed snd] in *.
  - exists aty. apply tinv_pset; [exact HT|exact I].
  - rewrite code_newslice_eq. exists (aty ++ [t])%list. apply tinv_alloc; [exact HI|exact HT|].
    apply Forall_map_assign; [apply Hw|]. eapply Forall_impl; [|exact Ht]. intros; left; assumption.
  - rewrite code_make_eq. unfold make_. destruct (Value_Int nv <? 0); [exists aty; exact HT|].
    exists (aty ++ [t])%list. apply tinv_alloc; [exact HI|exact HT|]. apply Forall_repeat. left. apply vt_newZero.
  - specialize (P y (proj2 Hw)). unfold code_slice. rewrite Value_Slice_data.
    destruct (reslice _ _ _) as [d'| |] eqn:R; try (exists aty; exact HT).
    exists aty. apply tinv_pset; [exact HT|]. apply reslice_Ok in R as [_ ->]. cbn [gdata elemty].
    destruct (gdata (pget p y)); [exact I|exact P].
  - specialize (P x Hw). unfold code_set. rewrite Value_Set_data.
    destruct (set st _ _ _) as [st'| |] eqn:E; try (exists aty; exact HT).
    apply set_Ok in E as (a & o & l & c & Ed & _ & ->). rewrite Ed in P.
    exists aty. apply tinv_write; [exact HT|]. constructor; [|constructor]. rewrite P.
    apply assign_tcell; [apply (Hp x Hw)|left; exact Ht].
  - destruct Hw as (Hx & Hy & Hz). destruct Ht as [Hv Hsp]. destruct (Hp y Hy) as [Wy Sy].
    pose proof (P y Hy) as Py. pose proof (tcells aty st p y HT Hy) as Cy.
    set (items := (vs ++ _)%list).
    assert (Fi : Forall (tcell (elemty (pget p y))) (map (assign_to (elemty (pget p y))) items)).
    { apply Forall_map_assign; [exact Sy|]. apply Forall_app. split.
      - eapply Forall_impl; [|exact Hv]. intros; left; assumption.
      - destruct sp as [|z|bs]; cbn [spread_of spread_items]; [constructor| |].
        + rewrite <- Hsp. eapply Forall_impl; [|apply (tcells aty st p z HT Hz)]. intros; right; assumption.
        + rewrite Hsp. apply Forall_map_all. left. left. reflexivity. }
    destruct (pget p y) as [t|t d]; cbn [gdata elemty] in *.
    + rewrite nil_append. exists (aty ++ [Type_value t])%list. apply tinv_alloc; assumption.
    + cbn [code_append]. rewrite append_refines by assumption.
      unfold append_. destruct (_ <=? _)%nat; cbn [fst snd].
      * exists aty. destruct d; cbn [fst snd]; [apply tinv_pset; [exact HT|exact I]|].
        apply tinv_pset; [|exact Py]. apply tinv_write; [exact HT|]. rewrite Py. exact Fi.
      * exists (aty ++ [t])%list. apply tinv_alloc; [exact HI|exact HT|].
        repeat (apply Forall_app; split); [exact Cy|exact Fi|apply Forall_repeat; right; reflexivity].
  - exists aty. apply tinv_copy; [exact HT|apply Hw|]. rewrite <- Ht. apply (tcells aty st p y HT), Hw.
  - exists aty. apply tinv_copy; [exact HT|exact Hw|]. rewrite Ht. apply Forall_map_all. left. reflexivity.
Qed.

Lemma tinv_run os : forall aty s, Inv s -> TInv aty s -> hist_typed s os -> exists aty', TInv aty' (run s os) /\ Inv (run s os).
Proof.
  induction os as [|o os IH]; intros aty s HI HT Hh; [exists aty; split; assumption|].
  destruct Hh as (Hw & Ht & Hr). destruct (tinv_step aty s o HI HT Hw Ht) as [aty1 HT1].
  cbn [run fold_left]. apply (IH aty1); [apply inv_kept; assumption|exact HT1|exact Hr].
Qed.

Lemma tinv_init n : TInv [] ([], repeat (GNil (fn_sliceType TypeInt32)) n).
Proof.
  split; [reflexivity|split]; cbn [fst snd]; [exact (store_all_nil _)|].
  intros x Hx. rewrite repeat_length in Hx. rewrite pget_repeat by exact Hx. exact I.
Qed.

(* every element of every variable, after any well-typed history *)
Lemma elemty_run os s aty : Inv s -> TInv aty s -> hist_typed s os ->
  forall x, (x < length (snd (run s os)))%nat ->
  Forall (tcell (elemty (pget (snd (run s os)) x))) (cells (fst (run s os)) (gdata (pget (snd (run s os)) x))).
Proof.
  intros HI HT Hh x Hx. destruct (tinv_run os aty s HI HT Hh) as (aty' & HT' & _).
  destruct (run s os) as [st' p']. apply (tcells aty' st' p' x HT' Hx).
Qed.

(* without any typing assumption: no cell ever holds an untyped constant or a nil-tagged value
   other than Value{}; every stored value went through assign *)
Lemma stored_run os s : Inv s -> hist_ok s os ->
  forall x, Forall sok (cells (fst (run s os)) (gdata (pget (snd (run s os)) x))).
Proof. intros HI Hh x. apply cells_sok. apply (inv_run os s HI Hh). Qed.

Lemma map_combine {A B} (l1 : list A) (l2 : list B) : length l1 = length l2 ->
  map fst (combine l1 l2) = l1 /\ map snd (combine l1 l2) = l2.
Proof.
  revert l2. induction l1 as [|a l1 IH]; intros [|b l2] H; try discriminate; [split; reflexivity|].
  injection H as H. destruct (IH l2 H) as [F S]. cbn. rewrite F, S. split; reflexivity.
Qed.

(* range visits exactly the elements, in order, with keys Int(0), Int(1), ... *)
Lemma range_refines st g : wf_slice st (gdata g) ->
  map snd (Value_Range st g) = cells st (gdata g) /\
  map fst (Value_Range st g) = map (fun n => fn_Int (Z.of_nat n)) (seq 0 (Value_Len g)).
Proof.
  intros W. destruct g as [t|t d]; [split; reflexivity|]. cbn [Value_Range gdata Value_Len] in *.
  apply and_comm, map_combine. rewrite map_length, seq_length, length_cells by exact W. reflexivity.
Qed.
(* the lazy form: the n-th call reads the n-th element of the descriptor fixed at loop start from
   the CURRENT store *)
Lemma range_next_refines st g n :
  range_next st g n = match index st (gdata g) (Z.of_nat n) with
                      | Ok v => Some (fn_Int (Z.of_nat n), v) | _ => None end.
Proof.
  destruct g as [t|t d]; cbn [range_next gdata]; [rewrite index_out by (cbn; lia); reflexivity|].
  unfold index. rewrite Nat2Z.id.
  destruct (range_spec (Z.of_nat n) (Z.of_nat (slen d))), (Nat.ltb_spec n (slen d)); try lia;
    [destruct (nth_error _ n)|]; reflexivity.
Qed.

(* append(bytes, "s"...): the spread of a string is the list of its bytes as uint8 values, for
   every string *)
Lemma spread_string_bytes st s :
  spread_items st (SpStr s) = map fn_Byte s /\ Forall (fun v => vt v = TypeUint8) (spread_items st (SpStr s)).
Proof.
  split; [reflexivity|]. apply Forall_map_all. reflexivity.
Qed.

(* Findings: where the faithful model and Go differ, each with a witness.
   F1. slicing a nil slice, or appending nothing to it, gives a NON-nil value (Go: nil) *)
Example finding_nil_not_preserved :
  (exists h, Value_Slice (GNil (fn_sliceType TypeInt32)) 0 0 = Ok h /\ g_isnil h = false) /\
  @reslice SNil 0 0 = Ok SNil /\
  g_isnil (snd (code_append (fun _ n => n) [] (GNil (fn_sliceType TypeInt32)) [])) = false /\
  snd (append_ nilV (fun _ n => n) [] SNil []) = SNil.
Proof. split; [eexists; split; reflexivity|]. repeat split; reflexivity. Qed.

(* F2. the spare cells of an array allocated by a growing append hold Value{} (nil), not the zero
   value of the element type: x := []int{1,2,3}; x = append(x, 4) [capacity 6]; x[:6][5] is nil *)
Example finding_slack_is_nil :
  let i32 n := mkValue TypeInt32 (Zn n) PNone in
  let '(st1, x) := code_newslice [] TypeInt32 [i32 1; i32 2; i32 3] in
  let '(st2, y) := code_append (fun _ _ => 6%nat) st1 x [i32 4] in
  match Value_Slice y 0 6 with
  | Ok z => Value_Get st2 z (i32 5) = Ok nilV /\ fn_newZero TypeInt32 <> nilV
  | _ => False
  end.
Proof. vm_compute. split; [reflexivity|discriminate]. Qed.

(* F3. host API only: Value.Append on a nil Value keeps the items as they are (no conversion to the
   element type): an untyped constant stays untyped in a []float64 *)
Example finding_host_append_nil_unassigned :
  let '(st, g) := Value_Append (fun _ n => n) [] (GNil (fn_sliceType TypeFloat64)) [mkValue untypedInt (Zn 1) PNone] 1 in
  Value_Get st g (mkValue TypeInt32 (Zn 0) PNone) = Ok (mkValue untypedInt (Zn 1) PNone) /\ elemty g = TypeFloat64.
Proof. vm_compute. split; reflexivity. Qed.
