(* C20: the backtrace of the VM lists exactly the active calls, and the reported position is the
   position of the instruction that raised the failure.  Proofs over Model/VM.v exec / call_fn and
   their ghost-instrumented copy Model/Backtrace.v gexec / gcall. *)
From Coq Require Import ZArith List String Bool Lia.
From GV Require Import GoSpec.GoPrim Gen.ValueOps_gen Gen.Tables_gen Model.VM Model.Backtrace Proofs.VM_step Proofs.C09_call.
Import ListNotations.
Open Scope string_scope.
Open Scope Z_scope.

Section BT.
  Variable grow : Z -> Z -> Z.
  Variable ext_get : st -> value -> value -> option (res value).
  Variable ext_set : st -> value -> value -> value -> option (res st).
  Variable ext_len : st -> value -> option Z.
  Variable ext_getattr : st -> value -> Z -> option (res (value * st)).
  Variable ext_setattr : st -> value -> Z -> value -> option (res st).

  (* objects outside the modelled fragment (maps, structs, host objects) do not touch the VM's backtrace:
     Value.Set / getIndex / setIndex have no access to the VM *)
  Hypothesis ext_set_bt : forall s r k v s', ext_set s r k v = Some (Ok s') -> bt s' = bt s.
  Hypothesis ext_getattr_bt : forall s r a v s', ext_getattr s r a = Some (Ok (v, s')) -> bt s' = bt s.
  Hypothesis ext_setattr_bt : forall s r a v s', ext_setattr s r a v = Some (Ok s') -> bt s' = bt s.

  Notation step1 := (step1 grow ext_get ext_set ext_len ext_getattr ext_setattr).
  Notation exec := (exec grow ext_get ext_set ext_len ext_getattr ext_setattr).
  Notation call_fn := (call_fn grow ext_get ext_set ext_len ext_getattr ext_setattr).
  Notation gexec := (gexec grow ext_get ext_set ext_len ext_getattr ext_setattr).
  Notation gcall := (gcall grow ext_get ext_set ext_len ext_getattr ext_setattr).
  Notation exec_S := (exec_S grow ext_get ext_set ext_len ext_getattr ext_setattr).
  Notation call_fn_pre := (call_fn_pre grow ext_get ext_set ext_len ext_getattr ext_setattr).

  Definition sres_bt (b : list Z) (r : sres) : Prop :=
    match r with
    | SNext _ _ s | SJump _ _ _ s | SCall _ _ _ _ _ _ s | SRet _ _ s | SFail _ s => bt s = b
    | SStuck _ | SUnmod _ => True
    end.

  Lemma slift_bt b r s k : bt s = b -> (forall v, sres_bt b (k v)) -> sres_bt b (slift r s k).
  Proof. intros Hs Hk. destruct r; cbn; auto. Qed.

  Lemma obj_set_bt s r k v s' : obj_set ext_set s r k v = inl (Ok s') -> bt s' = bt s.
  Proof.
    unfold obj_set. destruct (is_slice_tag (vt r)).
    - destruct (slice_parts s r) as [[[[[e arr] off] len] cap]|]; [|discriminate].
      destruct ((0 <=? Value_Int k) && (Value_Int k <? len)); [|discriminate].
      intro H; inversion H; reflexivity.
    - destruct (ext_set s r k v) as [rs|] eqn:E; [|discriminate].
      intro H; inversion H; subst. eapply ext_set_bt; eauto.
  Qed.

  Ltac bt_leaf :=
    cbn [sres_bt];
    first [ reflexivity | exact I | assumption
          | (eapply obj_set_bt; eassumption)
          | (eapply ext_getattr_bt; eassumption)
          | (eapply ext_setattr_bt; eassumption) ].

  Lemma alloc_bt s o : bt (fst (alloc s o)) = bt s.
  Proof. reflexivity. Qed.
  Lemma new_slice_bt s e cells : bt (fst (new_slice s e cells)) = bt s.
  Proof. reflexivity. Qed.

  Ltac bt_step :=
    match goal with
    | |- sres_bt _ (slift _ _ _) => apply slift_bt; [reflexivity | intro]
    | |- sres_bt _ (if ?c then _ else _) => destruct c
    | |- sres_bt _ (let (_, _) := alloc ?s ?o in _) => pose proof (alloc_bt s o); destruct (alloc s o)
    | |- sres_bt _ (let (_, _) := new_slice ?s ?e ?c in _) => pose proof (new_slice_bt s e c); destruct (new_slice s e c)
    | |- sres_bt _ (let (_, _) := ?x in _) => destruct x
    | |- sres_bt _ (match ?x with _ => _ end) => let E := fresh "E" in destruct x eqn:E
    end.

  Lemma step1_bt codes pc i slots ops s : sres_bt (bt s) (step1 codes pc i slots ops s).
  Proof.
    by_opcode i; repeat bt_step; cbn [fst] in *; first [bt_leaf | cbn [sres_bt]; congruence].
  Qed.

  (* The ghost once the body has run.  A callee that returned is no longer active, and what goes wrong with
     its results is raised at the call instruction; any other outcome of the body keeps the ghost it has. *)
  Definition gfinish (chain : list instr) (ci : instr) (c : cres) (r : result) (g : ghost) : ghost :=
    match r, c with
    | RDone _ _ _, COk _ _ => quiet chain
    | RDone _ _ _, CErr _ => raised chain ci
    | _, _ => g
    end.

  (* [gcall] computes what [call_fn] computes (C09_call.call_fn_pre); a failure before the body is raised
     at the call instruction *)
  Lemma gcall_pre f pack fa xa xr ci ops s chain :
    match call_pre pack fa xa xr (ipos ci) ops s with
    | inl c => fst (gcall (S f) pack fa xa xr ci ops s chain) = c /\
               forall msg p s', c = CErr (RFail msg p s') -> snd (gcall (S f) pack fa xa xr ci ops s chain) = raised chain ci
    | inr (e, rest) =>
        gcall (S f) pack fa xa xr ci ops s chain =
        let (r, g) := gexec f (e_body e) 0 (entry_slots (e_args e) (e_types e) (e_nslots e) (e_nargs e)) []
                            (push_bt (e_st e) (ipos ci)) (ci :: chain) in
        let c := finish (e_nargs e) (e_nrets e) xr (ipos ci) (e_types e) rest r in
        (c, gfinish chain ci c r g)
    end.
  Proof.
    (* cbn leaves the fixpoint's own text where gcall calls gexec; fold gives it its name again *)
    unfold call_pre. cbn [Backtrace.gcall]. fold gexec.
    destruct (hget s fa) as [[nargs nrets variadic vtype nslots types body|name| | | | |]|]; try (split; reflexivity).
    - destruct (variadic && pack).
      2: destruct (xa =? nargs); [|split; reflexivity].
      1: destruct (xa - nargs + 1 <? 0); [split; reflexivity|];
         destruct (popn (Z.to_nat (xa - nargs + 1)) ops []) as [[vargs rest]|]; [|split; reflexivity];
         destruct (variadic_arg s vtype (xa - nargs + 1) vargs) as [s1 sv];
         replace (xa - (xa - nargs + 1) + 1) with nargs by ring; rewrite Z.eqb_refl.
      all: cbn [negb]; unfold pop_args; destruct (popn (Z.to_nat nargs) _ []) as [[args rest']|]; [|split; [reflexivity|discriminate]];
        cbn [e_nargs e_nrets e_nslots e_types e_body e_args e_st]; unfold entry_slots, assign_zip;
        destruct (gexec f body 0 _ [] _ _) as [[sl rops s2| | | |] g]; try reflexivity;
        unfold finish, typed_results, assign_zip; destruct (_ <? nrets); [reflexivity|]; destruct (_ <? xr); reflexivity.
    - unfold call_native. destruct (_ || _); [|split; [reflexivity|discriminate]].
      destruct (negb pack); [split; [reflexivity|discriminate]|].
      destruct (popn (Z.to_nat xa) ops []) as [[args rest]|]; [|split; [reflexivity|discriminate]].
      destruct (all_some _); [|split; [reflexivity|discriminate]].
      destruct (0 <? xr); split; try reflexivity; discriminate.
  Qed.

  (* erasure: the ghost bookkeeping does not change what the machine computes *)

  Lemma ghost_erase : forall fuel,
    (forall codes pc slots ops s chain, fst (gexec fuel codes pc slots ops s chain) = exec fuel codes pc slots ops s) /\
    (forall pack fa xa xr ci ops s chain, fst (gcall fuel pack fa xa xr ci ops s chain) = call_fn fuel pack fa xa xr (ipos ci) ops s).
  Proof.
    induction fuel as [|f [IHe IHc]]; split; intros; try reflexivity.
    - rewrite exec_S. cbn [Backtrace.gexec]. fold gexec gcall.
      destruct (znth codes pc) as [i|]; [|reflexivity].
      destruct (step1 codes pc i slots ops s); try reflexivity; try apply IHe.
      rewrite <- IHc with (chain := chain).
      destruct (gcall f pack fa xArgs xRets i ops0 s0 chain) as [[ops'' s''|r] g]; cbn [fst]; [apply IHe | reflexivity].
    - rewrite call_fn_pre. pose proof (gcall_pre f pack fa xa xr ci ops s chain) as G.
      destruct (call_pre pack fa xa xr (ipos ci) ops s) as [c|[e rest]]; [exact (proj1 G)|].
      rewrite G, <- IHe with (chain := ci :: chain). now destruct (gexec f _ _ _ _ _ _).
  Qed.

  (* what holds of a (result, ghost) pair produced from a state whose backtrace is [map ipos chain] *)
  Definition bt_ok (chain : list instr) (r : result) (g : ghost) : Prop :=
    match r with
    | RDone _ _ s' => bt s' = map ipos chain
    | RFail msg pos s' =>
        (exists i, g_at g = Some i /\ pos = ipos i) /\
        (exists inner, g_chain g = (inner ++ chain)%list) /\
        bt s' = map ipos (g_chain g)
    | _ => True
    end.
  Definition cbt_ok (chain : list instr) (r : cres) (g : ghost) : Prop :=
    match r with
    | COk _ s' => bt s' = map ipos chain
    | CErr r' => match r' with RDone _ _ _ => False | _ => bt_ok chain r' g end   (* call_fn never yields CErr (RDone ..) *)
    end.

  Lemma bt_ok_weaken ci chain r g : (match r with RDone _ _ _ => False | _ => True end) ->
    bt_ok (ci :: chain) r g -> bt_ok chain r g.
  Proof.
    destruct r; cbn; auto; try tauto.
    intros _ [Hat [[inner Hin] Hbt]]. split; [assumption|]. split; [|assumption].
    exists (inner ++ [ci])%list. rewrite <- app_assoc. exact Hin.
  Qed.

  Lemma raised_ok chain ci msg s : bt s = map ipos chain -> bt_ok chain (RFail msg (ipos ci) s) (raised chain ci).
  Proof. intros H. split; [exists ci; auto|]. split; [exists []; reflexivity | exact H]. Qed.

  Lemma bt_inv : forall fuel,
    (forall codes pc slots ops s chain, bt s = map ipos chain ->
       let '(r, g) := gexec fuel codes pc slots ops s chain in bt_ok chain r g) /\
    (forall pack fa xa xr ci ops s chain, bt s = map ipos chain ->
       let '(r, g) := gcall fuel pack fa xa xr ci ops s chain in cbt_ok chain r g).
  Proof.
    induction fuel as [|f [IHe IHc]]; split; intros; try exact I.
    - cbn [Backtrace.gexec]. fold gexec gcall.
      destruct (znth codes pc) as [i|]; [|exact H].
      pose proof (step1_bt codes pc i slots ops s) as Hs. rewrite H in Hs.
      destruct (step1 codes pc i slots ops s) as [sl' ops' s'|d sl' ops' s'|pk fa xa xr sl' ops' s'|sl' ops' s'|msg s'|w|w];
        cbn [sres_bt] in Hs; try exact I; try (apply IHe; exact Hs); try exact Hs.
      + specialize (IHc pk fa xa xr i ops' s' chain Hs).
        destruct (gcall f pk fa xa xr i ops' s' chain) as [[ops'' s''|r] g]; cbn [cbt_ok] in IHc.
        * apply IHe; exact IHc.
        * destruct r; try exact I; try exact IHc; contradiction.
      + apply raised_ok, Hs.
    - pose proof (gcall_pre f pack fa xa xr ci ops s chain) as G.
      pose proof (call_pre_st (fun s' => bt s' = map ipos chain) pack fa xa xr (ipos ci) ops s H (fun _ => H)
                    (fun t n v => eq_trans (bt_variadic_arg s t n v) H)) as P.
      destruct (call_pre pack fa xa xr (ipos ci) ops s) as [c|[e rest]] eqn:E.
      + destruct (gcall (S f) pack fa xa xr ci ops s chain) as [c' g]. cbn [fst snd] in G. destruct G as [-> G].
        destruct c as [o s'|r]; [exact P|]. destruct r; try exact I.
        * exact (proj2 (call_pre_err _ _ _ _ _ _ _ _ E) _ _ _ eq_refl).
        * destruct P as [-> P]. rewrite (G _ _ _ eq_refl). now apply raised_ok.
      + rewrite G.
        specialize (IHe (e_body e) 0 (entry_slots (e_args e) (e_types e) (e_nslots e) (e_nargs e)) []
                        (push_bt (e_st e) (ipos ci)) (ci :: chain) (f_equal (cons (ipos ci)) P)).
        destruct (gexec f _ _ _ _ _ _) as [[sl rops s2|msg p s2|w| |w] g]; try exact I.
        * (* the callee returned: its entry leaves the backtrace *)
          assert (Hpop : bt (pop_bt s2) = map ipos chain) by (cbn; now rewrite IHe).
          pose proof (finish_done (e_nargs e) (e_nrets e) xr (ipos ci) (e_types e) rest sl rops s2) as D.
          destruct (finish _ _ _ _ _ _ _) as [o s'|[]]; try contradiction; cbn [gfinish cbt_ok].
          -- now subst s'.
          -- destruct D as [-> ->]. now apply raised_ok.
        * (* a failure inside the callee *)
          apply bt_ok_weaken with (ci := ci); [exact I | exact IHe].
  Qed.

  Theorem ghost_erase_exec : forall fuel codes pc slots ops s chain,
    fst (gexec fuel codes pc slots ops s chain) = exec fuel codes pc slots ops s.
  Proof. intros; apply (proj1 (ghost_erase fuel)). Qed.

  Theorem ghost_erase_call : forall fuel pack fa xa xr ci ops s chain,
    fst (gcall fuel pack fa xa xr ci ops s chain) = call_fn fuel pack fa xa xr (ipos ci) ops s.
  Proof. intros; apply (proj2 (ghost_erase fuel)). Qed.

  Theorem bt_inv_exec : forall fuel codes pc slots ops s chain, bt s = map ipos chain ->
    forall r g, gexec fuel codes pc slots ops s chain = (r, g) ->
    match r with
    | RDone _ _ s' => bt s' = map ipos chain
    | RFail msg pos s' =>
        (exists inner, g_chain g = (inner ++ chain)%list) /\
        bt s' = map ipos (g_chain g)
    | _ => True
    end.
  Proof.
    intros fuel codes pc slots ops s chain H r g E.
    pose proof (proj1 (bt_inv fuel) codes pc slots ops s chain H) as K. rewrite E in K.
    destruct r; try exact I; [exact K|]. destruct K as [_ [K1 K2]]. split; assumption.
  Qed.

  Theorem bt_inv_call : forall fuel pack fa xa xr ci ops s chain, bt s = map ipos chain ->
    forall r g, gcall fuel pack fa xa xr ci ops s chain = (r, g) ->
    match r with
    | COk _ s' => bt s' = bt s
    | CErr (RFail msg pos s') =>
        (exists inner, g_chain g = (inner ++ chain)%list) /\
        bt s' = map ipos (g_chain g)
    | _ => True
    end.
  Proof.
    intros fuel pack fa xa xr ci ops s chain H r g E.
    pose proof (proj2 (bt_inv fuel) pack fa xa xr ci ops s chain H) as K. rewrite E in K.
    destruct r as [ops' s'|r]; [rewrite H; exact K|].
    destruct r; try exact I. destruct K as [_ [K1 K2]]. split; assumption.
  Qed.

  Theorem fail_pos_ghost : forall fuel codes pc slots ops s chain, bt s = map ipos chain ->
    forall msg pos s' g, gexec fuel codes pc slots ops s chain = (RFail msg pos s', g) ->
    exists i, g_at g = Some i /\ pos = ipos i.
  Proof.
    intros fuel codes pc slots ops s chain H msg pos s' g E.
    pose proof (proj1 (bt_inv fuel) codes pc slots ops s chain H) as K. rewrite E in K.
    exact (proj1 K).
  Qed.

  (* one step of the loop: a failing instruction is reported with its own position ... *)
  Theorem fail_pos_direct : forall f codes pc slots ops s i msg s',
    znth codes pc = Some i -> step1 codes pc i slots ops s = SFail msg s' ->
    exec (S f) codes pc slots ops s = RFail msg (ipos i) s'.
  Proof. intros. rewrite exec_S, H, H0. reflexivity. Qed.

  (* ... a failure of the called function is the caller's result, unchanged ... *)
  Theorem fail_pos_propagates : forall f codes pc slots ops s i pack fa xa xr slots' ops' s' r,
    znth codes pc = Some i -> step1 codes pc i slots ops s = SCall pack fa xa xr slots' ops' s' ->
    call_fn f pack fa xa xr (ipos i) ops' s' = CErr r ->
    exec (S f) codes pc slots ops s = r.
  Proof. intros. rewrite exec_S, H, H0, H1. reflexivity. Qed.

  (* ... and call_fn hands a failure of the callee's body up unchanged (whatever the fuel, arguments, state) *)
  Theorem fail_pos_through_call : forall fuel pack fa xa xr ci ops s chain msg pos s' g,
    gcall fuel pack fa xa xr ci ops s chain = (CErr (RFail msg pos s'), g) ->
    (g_chain g = chain /\ g_at g = Some ci /\ pos = ipos ci) \/       (* raised at the call instruction itself *)
    (exists f' nargs nrets variadic vtype nslots types body slots0 s1,  (* or inside the body, handed up as it is *)
        fuel = S f' /\ hget s fa = Some (HFunc nargs nrets variadic vtype nslots types body) /\ bt s1 = bt s /\
        gexec f' body 0 slots0 [] (push_bt s1 (ipos ci)) (ci :: chain) = (RFail msg pos s', g)).
  Proof.
    intros fuel pack fa xa xr ci ops s chain msg pos s' g. destruct fuel as [|f]; [discriminate|].
    pose proof (gcall_pre f pack fa xa xr ci ops s chain) as G.
    pose proof (call_pre_st (fun s1 => bt s1 = bt s) pack fa xa xr (ipos ci) ops s eq_refl (fun _ => eq_refl)
                  (bt_variadic_arg s)) as P.
    destruct (call_pre pack fa xa xr (ipos ci) ops s) as [c|[e rest]] eqn:E; intros Eg.
    - rewrite Eg in G. cbn [fst snd] in G. destruct G as [<- G]. destruct P as [-> _].
      left. now rewrite (G _ _ _ eq_refl).
    - rewrite G in Eg. destruct (gexec f _ _ _ _ _ _) as [[sl rops s2|msg' p s2|w| |w] g'] eqn:Eb; try discriminate Eg.
      + pose proof (finish_done (e_nargs e) (e_nrets e) xr (ipos ci) (e_types e) rest sl rops s2) as D.
        destruct (finish _ _ _ _ _ _ _) as [|r]; inversion Eg; subst. now left.
      + inversion Eg; subst. right. destruct (call_pre_obj _ _ _ _ _ _ _ _ _ E) as (variadic & vtype & Hh).
        exists f, (e_nargs e), (e_nrets e), variadic, vtype, (e_nslots e), (e_types e), (e_body e).
        exists (entry_slots (e_args e) (e_types e) (e_nslots e) (e_nargs e)), (e_st e). auto.
  Qed.

  (* the error text: what btErr prints is what the ghost predicts *)
  Theorem error_text : forall fuel codes nslots s, bt s = [] ->
    forall msg pos s' g, grun grow ext_get ext_set ext_len ext_getattr ext_setattr fuel codes nslots s = (RFail msg pos s', g) ->
    Some (err_trace pos (bt s')) = ghost_trace g.
  Proof.
    intros fuel codes nslots s H msg pos s' g E. unfold grun in E.
    pose proof (proj1 (bt_inv fuel) codes 0 (repeat nilV (Z.to_nat nslots)) [] s [] H) as K.
    rewrite E in K. destruct K as [[i [Hat Hp]] [_ Hbt]].
    unfold ghost_trace, err_trace. rewrite Hat, Hbt, Hp. reflexivity.
  Qed.
End BT.
