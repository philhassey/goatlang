(* Facts about the specification GoSpec/Utf8.v: decoding inverts encoding for
   every Unicode scalar value, decoding accepts only shortest-form encodings,
   range offsets advance by the decoded widths and cover the string. *)
From Coq Require Import ZArith List Bool Lia Sorted ZifyBool.
From GV Require Import GoSpec.GoPrim GoSpec.Utf8.
Import ListNotations.
Open Scope Z_scope.

(* Global, and it reaches every file that loads this one: from here on lia knows / and mod.
   Needed for the r / 64, r mod 64 of the encoder against the shifted sums of the decoder. *)
Ltac Zify.zify_post_hook ::= Z.div_mod_to_equations.

Definition byte (b : Z) : Prop := 0 <= b <= 255.
Definition bytes (s : list Z) : Prop := Forall byte s.

Lemma valid_runeb_spec r : valid_runeb r = true <-> valid_rune r.
Proof. unfold valid_runeb, valid_rune, MaxRune. lia. Qed.

Definition rune_len (r : Z) : nat :=
  if r <? 128 then 1%nat else if r <? 2048 then 2%nat else if r <? 65536 then 3%nat else 4%nat.

Lemma encode_invalid r : ~ valid_rune r -> utf8_encode r = [239; 191; 189].
Proof.
  unfold valid_rune, MaxRune, utf8_encode. intros H. destruct (_ || _) eqn:E; [reflexivity|exfalso; lia].
Qed.

Lemma encode_valid r : valid_rune r ->
  utf8_encode r = if r <? 128 then [r]
  else if r <? 2048 then [192 + r / 64; 128 + r mod 64]
  else if r <? 65536 then [224 + r / 4096; 128 + (r / 64) mod 64; 128 + r mod 64]
  else [240 + r / 262144; 128 + (r / 4096) mod 64; 128 + (r / 64) mod 64; 128 + r mod 64].
Proof.
  unfold valid_rune, MaxRune, utf8_encode. intros H. destruct (_ || _) eqn:E; [exfalso; lia|reflexivity].
Qed.

Lemma encode_length r : valid_rune r -> length (utf8_encode r) = rune_len r.
Proof.
  intros H. rewrite (encode_valid r H). unfold rune_len.
  destruct (r <? 128), (r <? 2048), (r <? 65536); reflexivity.
Qed.

Lemma encode_bytes r : bytes (utf8_encode r).
Proof.
  unfold bytes, byte, utf8_encode.
  set (r' := if _ || _ then 65533 else r).
  assert (0 <= r' <= 1114111) by (subst r'; destruct (_ || _) eqn:E; lia).
  clearbody r'.
  destruct (r' <? 128) eqn:A; [repeat constructor; lia|].
  destruct (r' <? 2048) eqn:B; [repeat constructor; lia|].
  destruct (r' <? 65536) eqn:C; repeat constructor; lia.
Qed.

Lemma encode_pos r : (0 < length (utf8_encode r))%nat.
Proof.
  unfold utf8_encode. set (r' := if _ || _ then 65533 else r).
  destruct (r' <? 128), (r' <? 2048), (r' <? 65536); cbn [length]; lia.
Qed.

(* Well-formed UTF-8 by the value: a lead byte of the class for the width, continuation
   bytes 10xxxxxx, and a value that has no shorter form, is no surrogate and is at most
   U+10FFFF.  decode_rune enforces the last three through windows on the second byte
   (E0: A0..BF, ED: 80..9F, F0: 90..BF, F4: 80..8F); decode_shape and dec_sound show that
   the two descriptions agree.  dec_bad relates every non-empty string to (U+FFFD, 1), so
   dec determines the result only at widths above 1: hence the premise of dec_sound. *)
Inductive dec : list Z -> Z * nat -> Prop :=
| dec1 b0 t : b0 < 128 -> dec (b0 :: t) (b0, 1%nat)
| dec2 b0 b1 t r : 192 <= b0 < 224 -> 128 <= b1 <= 191 ->
    r = (b0 - 192) * 64 + (b1 - 128) -> 128 <= r -> dec (b0 :: b1 :: t) (r, 2%nat)
| dec3 b0 b1 b2 t r : 224 <= b0 < 240 -> 128 <= b1 <= 191 -> 128 <= b2 <= 191 ->
    r = (b0 - 224) * 4096 + (b1 - 128) * 64 + (b2 - 128) -> 2048 <= r -> ~ (55296 <= r <= 57343) ->
    dec (b0 :: b1 :: b2 :: t) (r, 3%nat)
| dec4 b0 b1 b2 b3 t r : 240 <= b0 < 248 -> 128 <= b1 <= 191 -> 128 <= b2 <= 191 -> 128 <= b3 <= 191 ->
    r = (b0 - 240) * 262144 + (b1 - 128) * 4096 + (b2 - 128) * 64 + (b3 - 128) -> 65536 <= r <= 1114111 ->
    dec (b0 :: b1 :: b2 :: b3 :: t) (r, 4%nat)
| dec_bad b0 t : dec (b0 :: t) bad.

Lemma decode_shape s : s <> [] -> dec s (decode_rune s).
Proof.
  destruct s as [|b0 t]; [congruence|]. intros _. unfold decode_rune, cont, between.
  destruct (Z.ltb_spec b0 128); [now constructor|].
  destruct (Z.ltb_spec b0 194); [constructor|].
  destruct (Z.ltb_spec b0 224).
  { destruct t as [|b1 t]; [constructor|].
    destruct (_ && _) eqn:C; constructor; lia. }
  destruct (Z.ltb_spec b0 240).
  { destruct t as [|b1 [|b2 t]]; try constructor.
    destruct (b0 =? 224) eqn:X, (b0 =? 237) eqn:Y, (_ && _) eqn:C; constructor; lia. }
  destruct (Z.ltb_spec b0 245); [|constructor].
  destruct t as [|b1 [|b2 [|b3 t]]]; try constructor.
  destruct (b0 =? 240) eqn:X, (b0 =? 244) eqn:Y, (_ && _) eqn:C; constructor; lia.
Qed.

Lemma dec_sound s x : dec s x -> (1 < snd x)%nat -> decode_rune s = x.
Proof.
  intros D W. destruct D; cbn in W; try lia; subst r; unfold decode_rune, cont, between;
    replace (b0 <? 128) with false by lia; replace (b0 <? 194) with false by lia.
  - replace (b0 <? 224) with true by lia. destruct (_ && _) eqn:C; [reflexivity|lia].
  - replace (b0 <? 224) with false by lia. replace (b0 <? 240) with true by lia.
    destruct (b0 =? 224) eqn:X, (b0 =? 237) eqn:Y, (_ && _) eqn:C; try reflexivity; lia.
  - replace (b0 <? 224) with false by lia. replace (b0 <? 240) with false by lia.
    replace (b0 <? 245) with true by lia.
    destruct (b0 =? 240) eqn:X, (b0 =? 244) eqn:Y, (_ && _) eqn:C; try reflexivity; lia.
Qed.

(* utf8.DecodeRune(utf8.AppendRune(nil, r) ++ rest) = (r, RuneLen(r)) for every scalar value *)
Lemma decode_encode_app r rest : valid_rune r ->
  decode_rune (utf8_encode r ++ rest)%list = (r, length (utf8_encode r)).
Proof.
  intros H. rewrite (encode_valid r H). destruct H as [[H0 H1] Hs]. unfold MaxRune in *.
  destruct (Z.ltb_spec r 128) as [A|A].
  { cbn [app decode_rune length]. replace (r <? 128) with true by lia. reflexivity. }
  destruct (Z.ltb_spec r 2048); [|destruct (Z.ltb_spec r 65536)];
    (apply dec_sound; [constructor; lia|cbn; lia]).
Qed.

Lemma decode_encode r : valid_rune r -> decode_rune (utf8_encode r) = (r, length (utf8_encode r)).
Proof. intros H. rewrite <- (app_nil_r (utf8_encode r)) at 1. apply decode_encode_app, H. Qed.

Lemma decode_width s : s <> [] -> (1 <= snd (decode_rune s) <= 4)%nat /\ (snd (decode_rune s) <= length s)%nat.
Proof. intros H. destruct (decode_shape s H); unfold bad; cbn [snd length]; lia. Qed.

Lemma decode_empty : decode_rune [] = (RuneError, 0%nat).
Proof. reflexivity. Qed.

(* an invalid result is exactly (U+FFFD, 1); any other result is the rune whose
   shortest-form encoding is the prefix that was consumed *)
Lemma decode_canonical s r w : bytes s -> s <> [] -> decode_rune s = (r, w) ->
  (r = RuneError /\ w = 1%nat) \/ (valid_rune r /\ firstn w s = utf8_encode r).
Proof.
  intros Hb Hne E. pose proof (decode_shape s Hne) as D. rewrite E in D.
  inversion D; [right..|left; split; reflexivity]; subst s.
  all: assert (V : valid_rune r) by (apply Forall_inv in Hb; unfold valid_rune, MaxRune, byte in *; lia).
  all: split; [exact V|]; rewrite (encode_valid r V); cbn [firstn].
  - replace (r <? 128) with true by lia. reflexivity.
  - replace (r <? 128) with false by lia. replace (r <? 2048) with true by lia.
    f_equal; [lia|]. f_equal. lia.
  - replace (r <? 128) with false by lia. replace (r <? 2048) with false by lia. replace (r <? 65536) with true by lia.
    f_equal; [lia|]. f_equal; [lia|]. f_equal. lia.
  - replace (r <? 128) with false by lia. replace (r <? 2048) with false by lia. replace (r <? 65536) with false by lia.
    f_equal; [lia|]. f_equal; [lia|]. f_equal; [lia|]. f_equal. lia.
Qed.

Lemma skipn_skipn {A} (a b : nat) (l : list A) : skipn a (skipn b l) = skipn (b + a) l.
Proof. revert l; induction b; intros l; [reflexivity|]. destruct l; [now rewrite !skipn_nil|]. cbn. apply IHb. Qed.

Lemma skipn_app_exact {A} (a b : list A) : skipn (length a) (a ++ b) = b.
Proof. induction a; [reflexivity|assumption]. Qed.

Lemma go_range_from_nil fuel off : go_range_from fuel off [] = [].
Proof. destruct fuel; reflexivity. Qed.

Lemma go_range_from_step fuel off s r w : s <> [] -> decode_rune s = (r, w) ->
  go_range_from (S fuel) off s = (off, r) :: go_range_from fuel (off + Z.of_nat w) (skipn w s).
Proof. intros Hs D. destruct s; [congruence|]. cbn [go_range_from]. rewrite D. reflexivity. Qed.

Lemma go_range_from_length fuel : forall off s, (length (go_range_from fuel off s) <= fuel)%nat.
Proof.
  induction fuel as [|f IH]; intros off s; [apply le_n|]. cbn [go_range_from].
  destruct s; [apply Nat.le_0_l|]. destruct (decode_rune (z :: s)). cbn [length]. apply le_n_S, IH.
Qed.

(* Induction along the decoder: each step consumes between 1 and 4 bytes, so fuel
   equal to the length, which is what go_range and go_widths supply, never runs out. *)
Lemma decode_ind (P : nat -> list Z -> Prop) :
  (forall fuel, P fuel []) ->
  (forall fuel s r w, s <> [] -> decode_rune s = (r, w) -> (1 <= w <= 4)%nat ->
     (length (skipn w s) + w = length s)%nat -> P fuel (skipn w s) -> P (S fuel) s) ->
  forall fuel s, (length s <= fuel)%nat -> P fuel s.
Proof.
  intros P0 PS. induction fuel as [|f IH]; intros s Hf.
  { destruct s; [apply P0|cbn in Hf; lia]. }
  destruct s as [|b t]; [apply P0|]. destruct (decode_rune (b :: t)) as [r w] eqn:D.
  pose proof (decode_width (b :: t) ltac:(congruence)) as [W1 W2]. rewrite D in W1, W2. cbn [snd] in *.
  assert (L : (length (skipn w (b :: t)) + w = length (b :: t))%nat) by (rewrite skipn_length; lia).
  apply (PS f _ r w); [congruence|assumption|assumption|assumption|]. apply IH. lia.
Qed.

Lemma go_range_from_bounds : forall fuel s, (length s <= fuel)%nat -> forall off,
  Forall (fun p => off <= fst p < off + Z.of_nat (length s)) (go_range_from fuel off s) /\
  StronglySorted Z.lt (map fst (go_range_from fuel off s)).
Proof.
  refine (decode_ind _ _ _).
  - intros fuel off. rewrite go_range_from_nil. split; constructor.
  - intros fuel s r w Hs D W L IH off. rewrite (go_range_from_step _ _ _ _ _ Hs D).
    destruct (IH (off + Z.of_nat w)) as [B S]. cbn [map fst]. split; constructor.
    + cbn [fst]. lia.
    + eapply Forall_impl; [|exact B]. cbn beta. intros p Hp. lia.
    + exact S.
    + rewrite Forall_map. eapply Forall_impl; [|exact B]. cbn beta. intros p Hp. lia.
Qed.

Lemma go_range_offsets_sorted s : StronglySorted Z.lt (map fst (go_range s)).
Proof. exact (proj2 (go_range_from_bounds _ s (le_n _) 0)). Qed.

Lemma go_range_offsets_bounds s : Forall (fun p => 0 <= fst p < Z.of_nat (length s)) (go_range s).
Proof. exact (proj1 (go_range_from_bounds _ s (le_n _) 0)). Qed.

Fixpoint sum_nat (l : list nat) : nat := match l with [] => 0%nat | x :: r => (x + sum_nat r)%nat end.

Lemma go_widths_from_sum : forall fuel s, (length s <= fuel)%nat ->
  sum_nat (go_widths_from fuel s) = length s /\ Forall (fun w => 1 <= w <= 4)%nat (go_widths_from fuel s).
Proof.
  refine (decode_ind _ _ _).
  - intros fuel. destruct fuel; split; constructor.
  - intros fuel s r w Hs D W L [S F]. destruct s; [congruence|].
    cbn [go_widths_from]. rewrite D. cbn [snd sum_nat]. split; [lia|constructor; assumption].
Qed.

Lemma go_widths_sum s : sum_nat (go_widths s) = length s /\ Forall (fun w => 1 <= w <= 4)%nat (go_widths s).
Proof. exact (go_widths_from_sum _ s (le_n _)). Qed.

(* the offsets are the running sums of the widths; each rune is the decoding of the
   suffix at its offset: a full characterisation of go_range by a chain relation *)
Inductive range_chain (s : list Z) : Z -> list (Z * Z) -> Prop :=
| chain_end : forall off, off = Z.of_nat (length s) -> range_chain s off []
| chain_step : forall off r w l, 0 <= off < Z.of_nat (length s) ->
    decode_rune (skipn (Z.to_nat off) s) = (r, w) ->
    range_chain s (off + Z.of_nat w) l -> range_chain s off ((off, r) :: l).

Lemma go_range_from_chain s : forall fuel t, (length t <= fuel)%nat -> forall k, t = skipn k s -> (k <= length s)%nat ->
  range_chain s (Z.of_nat k) (go_range_from fuel (Z.of_nat k) t).
Proof.
  refine (decode_ind _ _ _).
  - intros fuel k E Hk. rewrite go_range_from_nil. constructor.
    apply (f_equal (@length Z)) in E. rewrite skipn_length in E. cbn [length] in E. lia.
  - intros fuel t r w Ht D W L IH k E Hk. rewrite (go_range_from_step _ _ _ _ _ Ht D).
    assert (Lt : length t = (length s - k)%nat) by (rewrite E; apply skipn_length).
    apply chain_step with (w := w).
    + lia.
    + rewrite Nat2Z.id, <- E. exact D.
    + replace (Z.of_nat k + Z.of_nat w) with (Z.of_nat (k + w)) by lia.
      apply IH; [rewrite E; apply skipn_skipn|lia].
Qed.

Lemma go_range_chain s : range_chain s 0 (go_range s).
Proof. exact (go_range_from_chain s _ s (le_n _) 0%nat eq_refl (Nat.le_0_l _)). Qed.

Lemma range_chain_unique s off l1 : range_chain s off l1 -> forall l2, range_chain s off l2 -> l1 = l2.
Proof.
  induction 1 as [off E|off r w l B D C IH]; intros l2 H2; inversion H2; subst; try lia; [reflexivity|].
  match goal with H : decode_rune _ = (?r', ?w') |- _ => rewrite D in H; inversion H; subst end.
  f_equal. apply IH. assumption.
Qed.

Lemma go_range_from_encode_app fuel r rest off : valid_rune r ->
  (length (utf8_encode r ++ rest) <= fuel)%nat ->
  go_range_from fuel off (utf8_encode r ++ rest) =
  (off, r) :: go_range_from (pred fuel) (off + Z.of_nat (length (utf8_encode r))) rest.
Proof.
  intros H Hf. pose proof (encode_pos r) as Hp. rewrite app_length in Hf. destruct fuel; [lia|].
  rewrite (go_range_from_step _ _ _ r (length (utf8_encode r))).
  - rewrite skipn_app_exact. reflexivity.
  - destruct (utf8_encode r); [cbn in Hp; lia|discriminate].
  - apply decode_encode_app, H.
Qed.

Lemma go_range_encode r : valid_rune r -> go_range (utf8_encode r) = [(0, r)].
Proof.
  intros H. unfold go_range. rewrite <- (app_nil_r (utf8_encode r)).
  rewrite (go_range_from_encode_app _ r [] 0 H (le_n _)), go_range_from_nil. reflexivity.
Qed.

Lemma go_runes_from_encode rs : Forall valid_rune rs -> forall fuel off, (length (encode_runes rs) <= fuel)%nat ->
  map snd (go_range_from fuel off (encode_runes rs)) = rs.
Proof.
  induction 1 as [|r rs H _ IH]; intros fuel off Hf; unfold encode_runes in *; cbn [flat_map] in *.
  - rewrite go_range_from_nil. reflexivity.
  - rewrite (go_range_from_encode_app _ r _ off H Hf). cbn [map snd]. f_equal. apply IH.
    pose proof (encode_pos r). rewrite app_length in Hf. lia.
Qed.

(* []rune(string(rs)) = rs for scalar values *)
Lemma go_runes_encode rs : Forall valid_rune rs -> go_runes (encode_runes rs) = rs.
Proof. intros H. exact (go_runes_from_encode rs H _ 0 (le_n _)). Qed.
