(* C19 (part 1) -- values built with the constructors read back unchanged through
   the matching accessors.  Everything here is stated over the definitions that
   tools/go2v REGENERATES from /repo/value.go on every run (Gen/ValueOps_gen.v):
   fn_Int ... fn_String are value.go's Int ... String, Value_Int ... Value_Bool are
   the accessor methods.  int/uint are 64 bit on the platform under test, goatlang
   stores them as int32/uint32 (Int(v int) truncates), float64 payloads are kept
   as floats. *)
From Coq Require Import ZArith List Bool Floats Lia.
From GV Require Import GoSpec.GoPrim Gen.ValueOps_gen Proofs.C04_ops.
Import ListNotations.
Open Scope Z_scope.

Lemma in_range_I32_I64 z : in_range I32 z = true -> in_range I64 z = true.
Proof. exact (in_range_64 I32 z (Z.le_refl 32)). Qed.

Lemma in_range_U32_U64 z : in_range U32 z = true -> in_range U64 z = true.
Proof.
  unfold in_range. change (lo U32) with 0. change (lo U64) with 0.
  change (hi U32) with 4294967295. change (hi U64) with 18446744073709551615. lia.
Qed.

Lemma in_range_U32_I64 z : in_range U32 z = true -> in_range I64 z = true.
Proof. exact (in_range_64 U32 z (Z.le_refl 32)). Qed.

(* Every accessor reads [cvt k (vnum v)] and every integer constructor stores [Zn x] or [Zn (wrap k x)], so
   each integer round trip of Props/C19.v is C04_ops.cvt_id at the accessor's kind k', after (for Int / Uint,
   which keep 32 of the host's 64 bits) a range inclusion *)
Lemma cvt_wrap k k' x : (forall z, in_range k z = true -> in_range k' z = true) ->
  cvt k' (Zn (wrap k x)) = wrap k x.
Proof. intros H. apply cvt_id, H, wrap_in_range. Qed.

Lemma cvt_wrap_id k k' x : (forall z, in_range k z = true -> in_range k' z = true) ->
  in_range k x = true -> cvt k' (Zn (wrap k x)) = x.
Proof. intros H Hx. rewrite (wrap_id k x Hx). apply cvt_id, H, Hx. Qed.

Lemma rt_bool b : Value_Bool (fn_Bool b) = b.
Proof. now destruct b. Qed.

(* every scalar constructor leaves the object part empty, String leaves the number 0 *)
Lemma rt_payloads :
  (forall x, vval (fn_Int x) = PNone) /\ (forall x, vval (fn_Int32 x) = PNone) /\
  (forall x, vval (fn_Uint x) = PNone) /\ (forall x, vval (fn_Uint32 x) = PNone) /\
  (forall x, vval (fn_Int8 x) = PNone) /\ (forall x, vval (fn_Byte x) = PNone) /\
  (forall x, vval (fn_Uint8 x) = PNone) /\ (forall n, vval (fn_Float64 n) = PNone) /\
  (forall b, vval (fn_Bool b) = PNone) /\ (forall s, vnum (fn_String s) = Zn 0).
Proof. repeat split; try reflexivity. intros []; reflexivity. Qed.
