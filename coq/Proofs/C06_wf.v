(* C06: a skeleton the Go compiler accepts (break only inside for / range / switch, continue only
   inside a loop) compiles to code without BREAK / CONTINUE placeholders: every placeholder is
   rewritten by the construct it belongs to. *)
From Coq Require Import ZArith List Bool Lia.
From GV Require Import GoSpec.GoCtl Model.Ctl.
Import ListNotations.
Open Scope Z_scope.

(* every placeholder in c is one that an enclosing loop (inl) or switch (ins) will rewrite *)
Definition ok_in (inl ins : bool) (c : code) : Prop :=
  forall x, In x c -> (x = CBreak -> inl || ins = true) /\ (x = CContinue -> inl = true).

Definition plainb (i : cinstr) : bool := match i with CBreak | CContinue => false | _ => true end.

Lemma ok_in_plain : forall c inl ins, forallb plainb c = true -> ok_in inl ins c.
Proof.
  intros c inl ins H x Hx. rewrite forallb_forall in H. specialize (H x Hx).
  destruct x; try discriminate H; split; discriminate.
Qed.

Lemma ok_in_app : forall inl ins a b, ok_in inl ins a -> ok_in inl ins b -> ok_in inl ins (a ++ b).
Proof. intros inl ins a b Ha Hb x H. apply in_app_or in H as [H|H]; auto. Qed.

Lemma ok_in_cons : forall inl ins i c, plainb i = true -> ok_in inl ins c -> ok_in inl ins (i :: c).
Proof. intros inl ins i c Hi Hc. apply (ok_in_app inl ins [i]); [apply ok_in_plain; cbn; rewrite Hi; reflexivity|exact Hc]. Qed.

(* a rewriting loop turns code that is fine in the context (inl', ins') it creates into code that is fine
   outside: a kind of placeholder it always rewrites is gone, a kind it leaves alone must be allowed outside *)
Lemma ok_in_rewrite : forall c brk cnt n inl ins inl' ins', ok_in inl' ins' c ->
  ((exists m, brk m = None) -> inl' || ins' = true -> inl || ins = true) ->
  ((exists m, cnt m = None) -> inl' = true -> inl = true) ->
  ok_in inl ins (rewrite brk cnt n c).
Proof.
  induction c as [|a c IH]; intros brk cnt n inl ins inl' ins' H Hb Hc; cbn [rewrite]; intros x Hx; [destruct Hx|destruct Hx as [<-|Hx]].
  - destruct (H a (or_introl eq_refl)) as [A1 A2].
    destruct a; try (split; discriminate).
    + destruct (brk n) eqn:E; split; try discriminate. intros _. apply Hb; eauto.
    + destruct (cnt n) eqn:E; split; try discriminate. intros _. apply Hc; eauto.
  - revert x Hx. apply (IH brk cnt (n + 1) inl ins inl' ins'); auto. intros y Hy. apply H. right. exact Hy.
Qed.

Lemma guards_plain : forall isv v g gs, forallb plainb (guards isv v g gs) = true.
Proof.
  intros. assert (O : forall g, forallb plainb (one_guard isv v g) = true) by (destruct isv; reflexivity).
  unfold guards. rewrite forallb_app, O. induction gs as [|a gs IH]; [reflexivity|].
  cbn [more_guards]. rewrite forallb_app. cbn. rewrite O. exact IH.
Qed.

Scheme stmt_mut := Induction for stmt Sort Prop
  with block_mut := Induction for block Sort Prop
  with cases_mut := Induction for cases Sort Prop.
Combined Scheme ctl_mutind from stmt_mut, block_mut, cases_mut.

Definition clean_stmt (s : stmt) : Prop := forall L inl ins, wf inl ins s = true -> ok_in inl ins (compile L s).
Definition clean_block (b : block) : Prop := forall L inl ins, wf_block inl ins b = true -> ok_in inl ins (compile_block L b).
Definition clean_cases (cs : cases) : Prop := forall isv v L ldef inl ins, wf_cases inl true cs = true ->
  ok_in inl ins (compile_cases isv v L ldef cs).

Lemma total_some : forall (f : Z -> Z) m, (fun n => Some (f n)) m <> None.
Proof. intros; discriminate. Qed.

Lemma clean_all : (forall s, clean_stmt s) /\ (forall b, clean_block b) /\ (forall cs, clean_cases cs).
Proof.
  assert (Simple : forall o inl ins, ok_in inl ins (c_simple o)) by (intros [l|] inl ins; apply ok_in_plain; reflexivity).
  (* a loop rewrites both kinds, a switch the breaks only *)
  assert (Loop : forall f g c inl ins, ok_in true false c -> ok_in inl ins (rewrite (fun n => Some (f n)) (fun n => Some (g n)) 0 c)).
  { intros f g c inl ins H. apply (ok_in_rewrite c _ _ 0 inl ins true false H); intros [m Hm]; discriminate Hm. }
  assert (Sw : forall f c inl ins, ok_in inl true c -> ok_in inl ins (rewrite (fun n => Some (f n)) (fun _ => None) 0 c)).
  { intros f c inl ins H. apply (ok_in_rewrite c _ _ 0 inl ins inl true H); [intros [m Hm]; discriminate Hm|auto]. }
  apply ctl_mutind; unfold clean_stmt, clean_block, clean_cases.
  - intros l L inl ins _. apply ok_in_plain. reflexivity.
  - intros init c thn IHt els IHe L inl ins W. cbn [wf] in W. apply andb_true_iff in W. destruct W as [W1 W2].
    specialize (IHt L inl ins W1). specialize (IHe (L + slots_block thn)%nat inl ins W2).
    cbn [compile]. apply ok_in_app; [apply Simple|]. apply ok_in_app; [apply ok_in_plain; reflexivity|].
    destruct (_ =? 0); apply ok_in_cons; auto.
    apply ok_in_app; [exact IHt|]. apply ok_in_cons; auto.
  - intros init cond post body IHb L inl ins W. cbn [compile wf] in *.
    assert (Cond : ok_in inl ins (c_optcond cond)) by (destruct cond; apply ok_in_plain; reflexivity).
    repeat apply ok_in_app; auto; destruct (0 <? _); repeat apply ok_in_app; auto; apply ok_in_plain; reflexivity.
  - intros k body IHb L inl ins W. cbn [compile wf] in *.
    repeat apply ok_in_app; auto; apply ok_in_plain; reflexivity.
  - intros tag cs IHc dpos dflt IHd L inl ins W. cbn [wf] in W. apply andb_true_iff in W. destruct W as [W1 W2].
    cbn [compile]. repeat apply ok_in_app; auto.
    destruct tag; apply ok_in_plain; reflexivity.
  - intros L inl ins W x [<-|[]]. split; [auto|discriminate].
  - intros L inl ins W x [<-|[]]. split; [discriminate|auto].
  - intros L inl ins W. apply ok_in_plain. reflexivity.
  - intros L inl ins W x [].
  - intros s IHs b IHb L inl ins W. cbn [wf_block] in W. apply andb_true_iff in W. destruct W as [W1 W2].
    cbn [compile_block]. apply ok_in_app; auto.
  - intros isv v L ldef inl ins W x [].
  - intros g gs body IHb cs IHc isv v L ldef inl ins W. cbn [wf_cases] in W. apply andb_true_iff in W. destruct W as [W1 W2].
    cbn [compile_cases]. apply ok_in_app; [apply ok_in_plain, guards_plain|].
    repeat apply ok_in_app; auto; apply ok_in_plain; reflexivity.
Qed.
