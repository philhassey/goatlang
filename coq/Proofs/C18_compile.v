(* C18, compile part: compiling statement lists in one go or chunk by chunk (Model/Incr.v), the
   compile-time reads, and the composition with the run theorem into whole-vs-incremental Eval. *)
From Coq Require Import ZArith List String Ascii Bool Lia.
From GV Require Import GoSpec.GoPrim Gen.ValueOps_gen Gen.Tables_gen Model.Lookup Model.VM Model.Incr
                       Proofs.VM_step Proofs.C18_step Proofs.C18_seq Proofs.C18_run.
Import ListNotations.
Open Scope Z_scope.

Lemma shift_instr_shift : forall a b i, shift_instr a (shift_instr b i) = shift_instr (a + b) i.
Proof.
  intros a b i. unfold shift_instr. cbn [icode iA iB iC ipos]. f_equal.
  - destruct (slotA (icode i)); lia.
  - destruct (slotB (icode i)); [lia|]. destruct (icode i =? c_Iter); lia.
Qed.
Lemma shift_instr_0 : forall i, shift_instr 0 i = i.
Proof.
  intros [c a b cc p]. unfold shift_instr. cbn [icode iA iB iC ipos]. f_equal.
  - destruct (slotA c); lia.
  - destruct (slotB c); [lia|]. destruct (c =? c_Iter); lia.
Qed.
Lemma shift_code_shift : forall a b c k, shift_code a k (shift_code b k c) = shift_code (a + b) k c.
Proof.
  induction c as [|i r IH]; intros k; [reflexivity|].
  destruct k; cbn [shift_code].
  - destruct (icode i =? c_Func) eqn:E; cbn [shift_code].
    + rewrite E, IH. reflexivity.
    + rewrite icode_shift, E, shift_instr_shift, IH. reflexivity.
  - rewrite IH. reflexivity.
Qed.
Lemma shift_code_0 : forall c k, shift_code 0 k c = c.
Proof.
  induction c as [|i r IH]; intros k; [reflexivity|].
  destruct k; cbn [shift_code]; [destruct (icode i =? c_Func); [|rewrite shift_instr_0]|]; rewrite IH; reflexivity.
Qed.
Lemma shift_code_app : forall b c1 c2 k,
  shift_code b k (c1 ++ c2) = (shift_code b k c1 ++ shift_code b (final_skip k c1) c2)%list.
Proof.
  induction c1 as [|i r IH]; intros c2 k; [reflexivity|].
  destruct k; cbn [shift_code final_skip app].
  - destruct (icode i =? c_Func); cbn [app]; rewrite IH; reflexivity.
  - rewrite IH. reflexivity.
Qed.
Lemma final_skip_app : forall c1 c2 k, final_skip k (c1 ++ c2) = final_skip (final_skip k c1) c2.
Proof.
  induction c1 as [|i r IH]; intros c2 k; [reflexivity|].
  destruct k; cbn [final_skip app]; apply IH.
Qed.
Lemma compile_stmt_complete : forall t, wf_stmt t -> forall g c0 n0 g',
  compile_stmt t g = (Some (c0, n0), g') -> completeb c0 = true.
Proof.
  induction 1; intros g c0 n0 g' Hc; cbn [compile_stmt] in Hc;
    try destruct (index (c_lk g) k); try destruct (znth (c_vals g) i); try discriminate; eauto.
  inversion Hc; subst. assumption.
Qed.

Lemma compile_top_complete : forall p, Forall wf_stmt p -> forall b g c n g',
  compile_top p b g = (Some (c, n), g') -> final_skip O c = O.
Proof.
  induction p as [|t r IH]; intros Hwf b g c n g' Hc; cbn [compile_top] in Hc.
  - inversion Hc; subst. reflexivity.
  - inversion Hwf; subst.
    destruct (compile_stmt t g) as [[[c0 n0]|] g1] eqn:Es; [|discriminate].
    destruct (compile_top r (b + n0) g1) as [[[cr tot]|] g2] eqn:Er; [|discriminate].
    inversion Hc; subst. rewrite final_skip_app, final_skip_shift.
    rewrite (proj1 (Nat.eqb_eq _ _) (compile_stmt_complete _ H1 _ _ _ _ Es)). eapply IH; eauto.
Qed.

Theorem compile_top_app : forall p1 p2 b g,
  compile_top (p1 ++ p2) b g =
  match compile_top p1 b g with
  | (None, g1) => (None, g1)
  | (Some (c1, b1), g1) =>
      match compile_top p2 b1 g1 with
      | (None, g2) => (None, g2)
      | (Some (c2, b2), g2) => (Some ((c1 ++ c2)%list, b2), g2)
      end
  end.
Proof.
  induction p1 as [|t r IH]; intros p2 b g; cbn [compile_top app].
  - destruct (compile_top p2 b g) as [[[c2 b2]|] g2]; reflexivity.
  - destruct (compile_stmt t g) as [[[c0 n0]|] g1]; [|reflexivity].
    rewrite IH. destruct (compile_top r (b + n0) g1) as [[[cr tot]|] g2]; [|reflexivity].
    destruct (compile_top p2 tot g2) as [[[c2 b2]|] g3]; [|reflexivity].
    rewrite app_assoc. reflexivity.
Qed.

Lemma compile_top_base : forall p, Forall wf_stmt p -> forall b g,
  compile_top p b g =
  match compile_top p 0 g with
  | (None, g') => (None, g')
  | (Some (c, n), g') => (Some (shift_code b O c, b + n), g')
  end.
Proof.
  induction p as [|t r IH]; intros Hwf b g; cbn [compile_top].
  - rewrite Z.add_0_r. reflexivity.
  - inversion Hwf; subst.
    destruct (compile_stmt t g) as [[[c0 n0]|] g1] eqn:Es; [|reflexivity].
    rewrite (IH H2 (b + n0) g1), (IH H2 (0 + n0) g1).
    destruct (compile_top r 0 g1) as [[[cr tot]|] g2] eqn:Er; [|reflexivity].
    rewrite shift_code_app, final_skip_shift, (proj1 (Nat.eqb_eq _ _) (compile_stmt_complete _ H1 _ _ _ _ Es)).
    rewrite !shift_code_shift, Z.add_0_r, Z.add_0_l.
    replace (b + n0 + tot) with (b + (n0 + tot)) by lia. reflexivity.
Qed.

Theorem compile_chunks_concat : forall cs, Forall (Forall wf_stmt) cs -> forall b g,
  compile_top (List.concat cs) b g =
  match compile_chunks cs g with
  | (None, g') => (None, g')
  | (Some chs, g') => (Some (assemble b chs, b + total_slots chs), g')
  end.
Proof.
  induction cs as [|p rest IH]; intros Hwf b g; cbn [List.concat compile_chunks compile_top].
  - rewrite Z.add_0_r. reflexivity.
  - inversion Hwf; subst. rewrite compile_top_app, (compile_top_base p H1 b g).
    destruct (compile_top p 0 g) as [[[c n]|] g1] eqn:Ep; [|reflexivity].
    rewrite (IH H2 (b + n) g1).
    destruct (compile_chunks rest g1) as [[chs|] g2]; [|reflexivity].
    cbn [assemble total_slots]. replace (b + n + total_slots chs) with (b + (n + total_slots chs)) by lia. reflexivity.
Qed.

Lemma znth_app_nil : forall (v : list value) i, znth (v ++ [nilV]) i =
  match znth v i with Some a => Some a | None => if i =? zlen v then Some nilV else None end.
Proof.
  intros v i. unfold znth. destruct (i <? 0) eqn:E.
  { apply Z.ltb_lt in E. replace (i =? zlen v) with false; [reflexivity|]. symmetry. apply Z.eqb_neq. unfold zlen. lia. }
  apply Z.ltb_ge in E.
  destruct (nth_error v (Z.to_nat i)) eqn:En.
  - rewrite nth_error_app1; [assumption|]. apply nth_error_Some. congruence.
  - apply nth_error_None in En. rewrite nth_error_app2 by assumption.
    destruct (i =? zlen v) eqn:Ei.
    + apply Z.eqb_eq in Ei. unfold zlen in Ei. replace (Z.to_nat i - List.length v)%nat with 0%nat by lia. reflexivity.
    + apply Z.eqb_neq in Ei. unfold zlen in Ei.
      destruct (Z.to_nat i - List.length v)%nat eqn:Ed; [lia|]. destruct n; reflexivity.
Qed.

Lemma vagree_app : forall S v v', vagree S v v' -> vagree S (v ++ [nilV]) (v' ++ [nilV]).
Proof.
  intros S v v' [Hl H]. split; [rewrite !app_length, Hl; reflexivity|].
  intros i Hi. specialize (H i Hi). unfold stable in *. rewrite !znth_app_nil.
  unfold zlen. rewrite <- Hl.
  destruct (znth v i), (znth v' i); try contradiction; try exact H.
  destruct (i =? Z.of_nat (List.length v)); auto.
Qed.
Lemma vagree_set : forall S v v' i x, vagree S v v' -> vagree S (zset v i x) (zset v' i x).
Proof.
  intros S v v' i x [Hl H]. split; [rewrite !zset_length; exact Hl|].
  intros j Hj. specialize (H j Hj). unfold stable in *.
  destruct (Z.ltb_spec i 0) as [Hn|Hn].
  - unfold zset. replace (i <? 0) with true by (symmetry; apply Z.ltb_lt; lia). exact H.
  - rewrite !znth_zset by assumption. destruct (i =? j); [|exact H].
    destruct (znth v j), (znth v' j); try contradiction; auto.
Qed.

Lemma csim_vals : forall S lk im v v', vagree S v v' -> csim S (mkC lk v im) (mkC lk v' im).
Proof. intros S lk im v v' H. exact (conj eq_refl (conj eq_refl H)). Qed.

(* csim forces equal tables and imports: it is enough to vary the values *)
(* the compiler sees the global VALUES only through [view_type] / [view_int] at the indices it reads;
   two states that agree there compile alike *)
Lemma compile_stmt_agree_vals : forall S t lk im v v', vagree S v v' -> Forall S (stmt_reads t (mkC lk v im)) ->
  fst (compile_stmt t (mkC lk v' im)) = fst (compile_stmt t (mkC lk v im)) /\
  csim S (snd (compile_stmt t (mkC lk v im))) (snd (compile_stmt t (mkC lk v' im))) /\
  stmt_reads t (mkC lk v' im) = stmt_reads t (mkC lk v im).
Proof.
  intros S. induction t as [code n|k cont IH|k cont IH|i cont IH|i cont IH|i x cont IH|a p cont IH|a cont IH|msg];
    intros lk im v v' Hv Hr; cbn [compile_stmt stmt_reads c_lk c_vals c_imps fst snd] in *; auto using csim_vals.
  (* the two reads: both states show the same view at i *)
  2,3: inversion Hr as [|? ? Hi Hr']; subst; pose proof (proj2 Hv i Hi) as Hst; unfold stable in Hst;
       destruct (znth v i) as [a|], (znth v' i) as [b|]; try contradiction; [|cbn [fst snd]; auto using csim_vals];
       destruct Hst as [E1 E2]; rewrite <- ?E1, <- ?E2; destruct (IH _ lk im v v' Hv Hr') as (H1 & H2 & ->); auto.
  - destruct (index lk k) as [lk' ix]. apply IH; [|exact Hr].
    destruct (exists_ lk k); [exact Hv | now apply vagree_app].
  - pose proof (znth_dom v v' i (proj1 Hv)) as Hd.
    destruct (znth v i), (znth v' i); try contradiction; [|cbn [fst snd]; auto using csim_vals].
    apply IH; [now apply vagree_set | exact Hr].
Qed.

Lemma compile_stmt_agree : forall S t g g', csim S g g' -> Forall S (stmt_reads t g) ->
  fst (compile_stmt t g') = fst (compile_stmt t g) /\
  csim S (snd (compile_stmt t g)) (snd (compile_stmt t g')) /\
  stmt_reads t g' = stmt_reads t g.
Proof.
  intros S t [lk v im] [lk' v' im'] (Hlk & Him & Hv). cbn in Hlk, Him, Hv. subst lk' im'.
  now apply compile_stmt_agree_vals.
Qed.

Lemma compile_top_agree : forall S p b g g', csim S g g' -> Forall S (top_reads p g) ->
  fst (compile_top p b g') = fst (compile_top p b g) /\
  csim S (snd (compile_top p b g)) (snd (compile_top p b g')) /\
  top_reads p g' = top_reads p g.
Proof.
  intros S. induction p as [|t r IH]; intros b g g' Hs Hr; cbn [compile_top top_reads] in *.
  - auto.
  - apply Forall_app in Hr. destruct Hr as [Hr1 Hr2].
    destruct (compile_stmt_agree S t g g' Hs Hr1) as [H1 [H2 H3]].
    destruct (compile_stmt t g) as [o g1] eqn:E1, (compile_stmt t g') as [o' g1'] eqn:E1'.
    cbn [fst snd] in *. subst o'. rewrite H3.
    destruct o as [[c0 n0]|]; [|rewrite (proj2 (proj2 (IH 0 g1 g1' H2 Hr2))); auto].
    destruct (IH (b + n0) g1 g1' H2 Hr2) as [H4 [H5 H6]].
    destruct (compile_top r (b + n0) g1) as [o2 g2], (compile_top r (b + n0) g1') as [o2' g2'].
    cbn [fst snd] in *. subst o2'. rewrite H6.
    destruct o2 as [[cr tot]|]; auto.
Qed.

Lemma compile_chunks_agree : forall S cs g g', csim S g g' -> Forall S (chunks_reads cs g) ->
  fst (compile_chunks cs g') = fst (compile_chunks cs g) /\
  csim S (snd (compile_chunks cs g)) (snd (compile_chunks cs g')).
Proof.
  intros S. induction cs as [|p r IH]; intros g g' Hs Hr; cbn [compile_chunks chunks_reads] in *.
  - auto.
  - apply Forall_app in Hr. destruct Hr as [Hr1 Hr2].
    destruct (compile_top_agree S p 0 g g' Hs Hr1) as [H1 [H2 _]].
    destruct (compile_top p 0 g) as [o g1], (compile_top p 0 g') as [o' g1'].
    cbn [fst snd] in *. subst o'.
    destruct o as [ch|]; [|auto].
    destruct (IH g1 g1' H2 Hr2) as [H4 H5].
    destruct (compile_chunks r g1) as [o2 g2], (compile_chunks r g1') as [o2' g2'].
    cbn [fst snd] in *. subst o2'.
    destruct o2; auto.
Qed.

Section EvalThm.
  Variable grow : Z -> Z -> Z.
  Variable ext_get : st -> value -> value -> option (res value).
  Variable ext_set : st -> value -> value -> value -> option (res st).
  Variable ext_len : st -> value -> option Z.
  Variable ext_getattr : st -> value -> Z -> option (res (value * st)).
  Variable ext_setattr : st -> value -> Z -> value -> option (res st).
  Notation run := (VM.run grow ext_get ext_set ext_len ext_getattr ext_setattr).
  Notation run_seq := (Incr.run_seq grow ext_get ext_set ext_len ext_getattr ext_setattr).
  Notation eval1 := (Incr.eval1 grow ext_get ext_set ext_len ext_getattr ext_setattr true).
  Notation eval_seq := (Incr.eval_seq grow ext_get ext_set ext_len ext_getattr ext_setattr true).
  Notation incr_hyps := (Incr.incr_hyps grow ext_get ext_set ext_len ext_getattr ext_setattr).
  Notation run_chunks := (C18_run.run_chunks grow ext_get ext_set ext_len ext_getattr ext_setattr).

  Lemma cstate_eta : forall g, mkC (c_lk g) (c_vals g) (c_imps g) = g.
  Proof. destruct g; reflexivity. Qed.

  Lemma compile_chunks_cons : forall p rest g chs g', compile_chunks (p :: rest) g = (Some chs, g') ->
    exists ch chs', chs = ch :: chs'.
  Proof.
    intros p rest g chs g' H. cbn [compile_chunks] in H.
    destruct (compile_top p 0 g) as [[ch|] g1]; [|discriminate].
    destruct (compile_chunks rest g1) as [[chs'|] g2]; [|discriminate].
    inversion H; subst. eauto.
  Qed.

  (* the incremental session = compile every chunk first (in order), then run the chunks in order;
     every Eval of the session succeeds, the last one with the operands the last chunk left *)
  Lemma incr_staged : forall cs fuel m, cs <> [] -> incr_hyps fuel m cs ->
    exists chs gN slN opsN sN es,
      compile_chunks cs (cstate_of m) = (Some chs, gN) /\ Forall (fun ch => chunk_okb ch = true) chs /\
      run_seq fuel chs (set_globals (m_vm m) (c_vals gN)) = RDone slN opsN sN /\
      eval_seq fuel m cs = ((es ++ [EOk (rev opsN)])%list, mkM (c_lk gN) (c_imps gN) sN) /\ Forall is_ok es.
  Proof.
    induction cs as [|p rest IH]; intros fuel m Hne Hh; [congruence|].
    cbn [incr_hyps] in Hh.
    destruct (compile_top p 0 (cstate_of m)) as [[[c n]|] g1] eqn:Ep; [|contradiction].
    destruct Hh as [Hok Hh].
    destruct (run fuel c n (set_globals (m_vm m) (c_vals g1))) as [sl ops s1| | | |] eqn:Er; try contradiction.
    cbv zeta in Hh. destruct Hh as (Hleft & Hlen & Hreads & Hwr & Hrest).
    assert (E1 : eval1 fuel m p = (EOk (rev ops), mkM (c_lk g1) (c_imps g1) s1))
      by (unfold Incr.eval1; now rewrite Ep, Er).
    destruct rest as [|p2 rest'].
    - exists [(c, n)], g1, sl, ops, s1, [].
      cbn [compile_chunks Incr.eval_seq Incr.run_seq]. rewrite Ep, E1. repeat split; auto.
    - remember (p2 :: rest') as rest eqn:Erest.
      assert (Hne' : rest <> []) by (subst rest; discriminate).
      destruct (IH fuel _ Hne' Hrest) as (chs' & gB & slN & opsN & sN & es & Hc' & Hok' & Hrun' & Hev' & Hall').
      unfold cstate_of in Hc'. cbn [m_lk m_vm m_imps] in Hc', Hrun'.
      (* the later chunks compile alike before and after this chunk's run *)
      destruct (compile_chunks_agree (stable (globals s1) (c_vals g1)) rest
                  (mkC (c_lk g1) (globals s1) (c_imps g1)) g1) as [Hfst Hsnd];
        [exact (conj eq_refl (conj eq_refl (conj Hlen (fun _ H => H)))) | exact Hreads |].
      rewrite Hc' in Hfst, Hsnd. destruct (compile_chunks rest g1) as [o gA] eqn:EA.
      cbn [fst snd] in Hfst, Hsnd. subst o. destruct Hsnd as (Hlk & Him & _).
      destruct (Hwr chs' gA gB eq_refl Hc') as [sl' Hrun1]. rewrite (Hleft Hne') in *.
      exists ((c, n) :: chs'), gA, slN, opsN, sN, (EOk [] :: es).
      cbn [compile_chunks Incr.eval_seq]. rewrite Ep, EA, E1, Hev', Hlk, Him.
      split; [reflexivity|]. split; [now constructor|]. split; [|split; [reflexivity | constructor; [now exists [] | exact Hall']]].
      subst rest. destruct (compile_chunks_cons _ _ _ _ _ Hc') as (ch & chs'' & ->).
      cbn [Incr.run_seq]. rewrite Hrun1. exact Hrun'.
  Qed.

  Theorem eval_incremental_whole : forall cs fuel m,
    Forall (Forall wf_stmt) cs -> cs <> [] -> incr_hyps fuel m cs ->
    (forall chs g, compile_chunks cs (cstate_of m) = (Some chs, g) -> total_slots chs < slot_limit) ->
    exists fuel' rets,
      eval1 fuel' m (List.concat cs) = (EOk rets, snd (eval_seq fuel m cs)) /\
      last (fst (eval_seq fuel m cs)) ECompileErr = EOk rets /\
      Forall is_ok (fst (eval_seq fuel m cs)).
  Proof.
    intros cs fuel m Hwf Hne Hh Hlim.
    destruct (incr_staged cs fuel m Hne Hh) as (chs & gN & slN & opsN & sN & es & Hc & Hok & Hrun & -> & Hall).
    destruct (run_chunks chs fuel _ _ Hok (Hlim _ _ Hc) Hrun I) as (fuel' & sl' & Hw).
    exists fuel', (rev opsN). cbn [fst snd]. rewrite last_last, Forall_app.
    split; [|split; [reflexivity | split; [exact Hall | repeat constructor; now exists (rev opsN)]]].
    unfold Incr.eval1. now rewrite (compile_chunks_concat cs Hwf 0), Hc, Z.add_0_l, Hw.
  Qed.

  Theorem eval_whole_stops : forall cs fuel m chs gN msg pos s',
    Forall (Forall wf_stmt) cs -> compile_chunks cs (cstate_of m) = (Some chs, gN) ->
    Forall (fun ch => chunk_okb ch = true) chs -> total_slots chs < slot_limit ->
    run_seq fuel chs (set_globals (m_vm m) (c_vals gN)) = RFail msg pos s' ->
    exists fuel', eval1 fuel' m (List.concat cs) = (ERunErr msg pos, mkM (c_lk gN) (c_imps gN) s').
  Proof.
    intros cs fuel m chs gN msg pos s' Hwf Hc Hok Hlim Hrun.
    destruct (run_chunks chs fuel _ _ Hok Hlim Hrun I) as [fuel' Hw]. cbn in Hw.
    exists fuel'. unfold Incr.eval1. rewrite (compile_chunks_concat cs Hwf 0), Hc, Z.add_0_l, Hw. reflexivity.
  Qed.
  Theorem eval_whole_compile_error : forall cs fuel m g',
    Forall (Forall wf_stmt) cs -> compile_chunks cs (cstate_of m) = (None, g') ->
    eval1 fuel m (List.concat cs) = (ECompileErr, mkM (c_lk g') (c_imps g') (set_globals (m_vm m) (c_vals g'))).
  Proof.
    intros cs fuel m g' Hwf Hc. unfold Incr.eval1. rewrite (compile_chunks_concat cs Hwf 0), Hc. reflexivity.
  Qed.
End EvalThm.
