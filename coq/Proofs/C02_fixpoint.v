(* C02_fixpoint: the peephole optimizer reaches a fixpoint after its `optimize_passes` passes,
   for every instruction list.  `fixpoint_after_n` holds for any rule table and any number n of
   passes under the decidable condition `chain_free n rules`.  Both well-formedness conjuncts of
   that condition are necessary (`empty_pattern_*`, `lookahead_*` below), and comparing opcode
   names instead of numbers is unsound (`alias_*`).

   Proof idea.  Call a code `quiet k` if
   every rule that matches anywhere in it ends a chain of k links.  Every code
   is quiet 0.  One pass maps quiet k code to quiet (k+1) code: a window of the
   output made only of copied instructions is a contiguous window of the input
   starting at a position that was visited and where NO rule matched; so a match
   of r' in the output contains an instruction created by this pass, by a rule r
   that matched the input and so ends a chain of k links; the opcode of that
   instruction is one of the pattern opcodes of r', which adds the link r -> r'.
   After n passes a match of r would make r the end of a chain of n links, which
   chain_free excludes; so nothing matches and do_optimize is the identity. *)
From Coq Require Import ZArith List String Bool Lia Arith.
From GV Require Import Model.PeepTypes Model.VM Gen.Tables_gen Model.Peephole.
Import ListNotations.
Local Open Scope string_scope.
Local Open Scope list_scope.
Local Open Scope nat_scope.

Local Arguments C : simpl never.

(* side condition c only looks at window positions < k *)
Definition cond_idx_ok (k : nat) (c : cond) : bool :=
  match c with
  | CSame i _ j _ => (i <? k) && (j <? k)
  | CConst i _ _ => i <? k
  | CNotConst i _ _ => i <? k
  end.

Definition rule_wf (r : rule) : bool :=
  (0 <? rule_len r) && forallb (cond_idx_ok (rule_len r)) (r_conds r).

Definition rules_wf (rules : list rule) : bool := forallb rule_wf rules.

(* one link: the output opcode NUMBER of r' occurs among the pattern opcode numbers of r *)
Definition feeds1 (r' r : rule) : bool :=
  existsb (fun c => (C c =? C (r_out r'))%Z) (r_codes r).

(* r is the last rule of a chain of d links (d+1 rules); all predecessors are in `rules` *)
Fixpoint feeds (rules : list rule) (d : nat) (r : rule) : bool :=
  match d with
  | O => true
  | S d' => existsb (fun r' => feeds rules d' r' && feeds1 r' r) rules
  end.

(* no chain of passes+1 rules of the table *)
Definition no_chain (passes : nat) (rules : list rule) : bool :=
  forallb (fun r => negb (feeds rules passes r)) rules.

Definition chain_free (passes : nat) (rules : list rule) : bool :=
  rules_wf rules && no_chain passes rules.

Lemma feeds1_spec : forall r' r,
  feeds1 r' r = true <-> In (C (r_out r')) (map C (r_codes r)).
Proof.
  intros r' r. unfold feeds1. rewrite existsb_exists, in_map_iff.
  split; intros (c & H1 & H2); exists c; [apply Z.eqb_eq in H2|apply Z.eqb_eq in H1]; auto.
Qed.

Lemma feeds_S rules d r :
  feeds rules (S d) r = true <->
  exists r', In r' rules /\ feeds rules d r' = true /\ feeds1 r' r = true.
Proof.
  cbn [feeds]. rewrite existsb_exists.
  split; intros (r' & Hin & H); exists r'; (split; [exact Hin|]); apply andb_true_iff; exact H.
Qed.

Lemma no_chain_spec n rules :
  no_chain n rules = true <-> forall r, In r rules -> feeds rules n r = false.
Proof.
  unfold no_chain. rewrite forallb_forall.
  split; intros H r Hr; apply negb_true_iff, H, Hr.
Qed.

Lemma no_chain_two_spec : forall rules,
  no_chain 2 rules = true <->
  (forall r1 r2 r3, In r1 rules -> In r2 rules -> In r3 rules ->
     feeds1 r1 r2 = true -> feeds1 r2 r3 = true -> False).
Proof.
  intros rules. rewrite no_chain_spec. split.
  - intros H r1 r2 r3 H1 H2 H3 H12 H23.
    specialize (H r3 H3). rewrite (proj2 (feeds_S rules 1 r3)) in H; [discriminate|].
    exists r2. split; [exact H2|]. split; [|exact H23].
    apply feeds_S. exists r1. auto.
  - intros H r3 H3. apply not_true_is_false. intros Hf.
    apply feeds_S in Hf. destruct Hf as (r2 & H2 & Hf & H23).
    apply feeds_S in Hf. destruct Hf as (r1 & H1 & _ & H12).
    exact (H r1 r2 r3 H1 H2 H3 H12 H23).
Qed.

(* Witnesses of a chain are given by position in the table. *)
Lemma feeds_nth rules d k r' r :
  nth_error rules k = Some r' -> feeds rules d r' = true -> feeds1 r' r = true ->
  feeds rules (S d) r = true.
Proof. intros Hk Hf H1. apply feeds_S. exists r'. apply nth_error_In in Hk. auto. Qed.

Lemma feeds_self rules k r :
  nth_error rules k = Some r -> feeds1 r r = true -> forall n, feeds rules n r = true.
Proof.
  intros Hk H1. induction n as [|n IH]; [reflexivity|exact (feeds_nth _ _ k r r Hk IH H1)].
Qed.

Lemma chain_not_free n rules k r :
  nth_error rules k = Some r -> feeds rules n r = true ->
  no_chain n rules = false /\ chain_free n rules = false.
Proof.
  intros Hk Hf. assert (H : no_chain n rules = false).
  { apply not_true_is_false. intros H. apply nth_error_In in Hk.
    rewrite (proj1 (no_chain_spec n rules) H r Hk) in Hf. discriminate. }
  unfold chain_free. rewrite H. split; [reflexivity|apply andb_false_r].
Qed.

(* `feeds rules n` recomputes the shorter chains for every rule, and each test of
   one link looks its opcode names up again.  A checker without a bytecode VM pays
   dearly for that, so the table is checked through its opcode numbers, looked up
   once, and the rules that end a chain of d links are computed level by level. *)
Definition numbered (r : rule) : list Z * Z := (map C (r_codes r), C (r_out r)).

Fixpoint chain_ends (rs : list (list Z * Z)) (d : nat) : list (list Z * Z) :=
  match d with
  | O => rs
  | S d' => let outs := map snd (chain_ends rs d') in
            filter (fun r => existsb (fun o => existsb (Z.eqb o) (fst r)) outs) rs
  end.

Lemma chain_ends_complete rules d : forall r,
  In r rules -> feeds rules d r = true -> In (numbered r) (chain_ends (map numbered rules) d).
Proof.
  induction d as [|d IH]; intros r Hr Hf; [exact (in_map _ _ _ Hr)|].
  apply feeds_S in Hf. destruct Hf as (r' & Hr' & Hf & H1).
  apply filter_In. split; [exact (in_map _ _ _ Hr)|].
  apply existsb_exists. exists (C (r_out r')). split; [exact (in_map snd _ _ (IH r' Hr' Hf))|].
  apply existsb_exists. exists (C (r_out r')). split; [apply feeds1_spec, H1|apply Z.eqb_refl].
Qed.

Lemma no_chain_ends n rules : chain_ends (map numbered rules) n = [] -> no_chain n rules = true.
Proof.
  intros He. apply no_chain_spec. intros r Hr. apply not_true_is_false. intros Hf.
  apply (chain_ends_complete rules n r Hr) in Hf. rewrite He in Hf. exact Hf.
Qed.

Lemma win_firstn k i (w : list instr) :
  (i <? k) = true -> win (firstn k w) i = win w i.
Proof.
  unfold win. revert i w. induction k as [|k IH]; intros i w Hlt; [discriminate|].
  destruct w as [|x w]; [reflexivity|]. destruct i as [|i]; [reflexivity|]. exact (IH i w Hlt).
Qed.

Lemma cond_ok_firstn : forall k w c,
  cond_idx_ok k c = true -> cond_ok (firstn k w) c = cond_ok w c.
Proof.
  intros k w c Hc. destruct c; cbn [cond_idx_ok] in Hc; [apply andb_true_iff in Hc; destruct Hc|..];
    unfold cond_ok; rewrite !win_firstn by assumption; reflexivity.
Qed.

Lemma forallb_ext_in {A} (f g : A -> bool) : forall l,
  (forall x, In x l -> f x = g x) -> forallb f l = forallb g l.
Proof.
  induction l as [|x l IH]; intros H; [reflexivity|].
  cbn [forallb]. rewrite (H x (or_introl eq_refl)), IH; [reflexivity|].
  intros y Hy. exact (H y (or_intror Hy)).
Qed.

Lemma codes_match_firstn : forall ns w,
  codes_match ns (firstn (List.length ns) w) = codes_match ns w.
Proof.
  induction ns as [|n ns IH]; intros [|i w]; try reflexivity.
  cbn [List.length firstn codes_match]. rewrite IH. reflexivity.
Qed.

Lemma rule_matches_firstn : forall r w,
  rule_wf r = true ->
  rule_matches r (firstn (rule_len r) w) = rule_matches r w.
Proof.
  intros r w Hwf. apply andb_true_iff in Hwf. destruct Hwf as (_ & Hconds).
  unfold rule_matches, rule_len. rewrite codes_match_firstn. f_equal.
  apply forallb_ext_in. intros c Hc. apply cond_ok_firstn.
  exact (proj1 (forallb_forall _ _) Hconds c Hc).
Qed.

Lemma codes_match_map : forall ns w,
  codes_match ns w = true -> map icode (firstn (List.length ns) w) = map C ns.
Proof.
  induction ns as [|n ns IH]; intros [|x w] Hm; try reflexivity; [discriminate|].
  cbn [codes_match] in Hm. apply andb_true_iff in Hm. destruct Hm as (Hx & Hm).
  apply Z.eqb_eq in Hx. cbn [List.length firstn map]. rewrite Hx, (IH w Hm). reflexivity.
Qed.

Lemma first_match_find rs w : first_match rs w = find (fun r => rule_matches r w) rs.
Proof. induction rs as [|r rs IH]; [reflexivity|]. cbn [first_match find]. rewrite IH. reflexivity. Qed.

Lemma first_match_some rs w r :
  first_match rs w = Some r -> In r rs /\ rule_matches r w = true.
Proof. rewrite first_match_find. apply find_some. Qed.

Lemma first_match_none rs w :
  first_match rs w = None -> forall r, In r rs -> rule_matches r w = false.
Proof. rewrite first_match_find. apply find_none. Qed.

(* do_optimize as a relation: the fuel is out of the way *)
Inductive opt_run (rs : list rule) : list instr -> list instr -> Prop :=
| OR_nil : opt_run rs [] []
| OR_copy : forall i rest out,
    first_match rs (i :: rest) = None ->
    opt_run rs rest out ->
    opt_run rs (i :: rest) (i :: out)
| OR_fuse : forall i rest r out,
    first_match rs (i :: rest) = Some r ->
    opt_run rs (skipn (rule_len r) (i :: rest)) out ->
    opt_run rs (i :: rest) (fused r (i :: rest) :: out).

Lemma opt_run_fun : forall rs code o1, opt_run rs code o1 ->
  forall o2, opt_run rs code o2 -> o1 = o2.
Proof.
  intros rs code o1 H1. induction H1 as [|i rest out Hfm H1 IH|i rest r out Hfm H1 IH];
    intros o2 H2; inversion H2; subst; try congruence.
  - f_equal. apply IH. assumption.
  - replace r0 with r in * by congruence. f_equal. apply IH. assumption.
Qed.

Section General.
Variable rules : list rule.
Hypothesis Hwf : rules_wf rules = true.

Lemma in_wf r : In r rules -> rule_wf r = true.
Proof. exact (proj1 (forallb_forall _ _) Hwf r). Qed.

Lemma matched_nonempty r w :
  In r rules -> rule_matches r w = true ->
  exists m i rest, rule_len r = S m /\ w = i :: rest.
Proof.
  intros Hin Hm. apply in_wf, andb_true_iff in Hin. destruct Hin as (Hlen & _).
  apply andb_true_iff in Hm. destruct Hm as (Hm & _). unfold rule_len in *.
  destruct (r_codes r) as [|n ns]; [discriminate|]. destruct w as [|i rest]; [discriminate|].
  exists (List.length ns), i, rest. auto.
Qed.

Lemma opt_run_fuel : forall fuel code,
  List.length code <= fuel -> opt_run rules code (do_optimize_fuel fuel rules code).
Proof.
  induction fuel as [|f IH]; intros [|i rest] Hlen; try apply OR_nil; [cbn [List.length] in Hlen; lia|].
  cbn [do_optimize_fuel]. destruct (first_match rules (i :: rest)) as [r|] eqn:Hfm.
  - apply OR_fuse; [exact Hfm|]. apply IH.
    destruct (first_match_some _ _ _ Hfm) as (Hin & Hm).
    destruct (matched_nonempty r _ Hin Hm) as (m & _ & _ & Hr & _).
    rewrite skipn_length, Hr. cbn [List.length] in *. lia.
  - apply OR_copy; [exact Hfm|]. apply IH. cbn [List.length] in Hlen. lia.
Qed.

Lemma opt_run_do_optimize code : opt_run rules code (do_optimize rules code).
Proof. apply opt_run_fuel. lia. Qed.

Lemma fuel_independent : forall fuel code,
  List.length code <= fuel -> do_optimize_fuel fuel rules code = do_optimize rules code.
Proof.
  intros fuel code Hlen.
  exact (opt_run_fun _ _ _ (opt_run_fuel fuel code Hlen) _ (opt_run_do_optimize code)).
Qed.

Definition quiet (k : nat) (code : list instr) : Prop :=
  forall p w r, code = p ++ w -> In r rules -> rule_matches r w = true -> feeds rules k r = true.

Lemma quiet_app k p code : quiet k (p ++ code) -> quiet k code.
Proof. intros H p' w r Heq. apply (H (p ++ p') w r). rewrite Heq. apply app_assoc. Qed.

Lemma quiet_cons k x code :
  (forall r, In r rules -> rule_matches r (x :: code) = true -> feeds rules k r = true) ->
  quiet k code -> quiet k (x :: code).
Proof.
  intros Hh Ht [|y p] w r Heq.
  - cbn [app] in Heq. subst w. apply Hh.
  - injection Heq as _ Heq. exact (Ht p w r Heq).
Qed.

Lemma fired k code r :
  quiet k code -> first_match rules code = Some r -> In r rules /\ feeds rules k r = true.
Proof.
  intros Hq Hfm. destruct (first_match_some _ _ _ Hfm) as (Hr & Hm).
  exact (conj Hr (Hq [] code r eq_refl Hr Hm)).
Qed.

(* r' matches a window that holds an instruction created by r *)
Lemma link k r r' w :
  In r rules -> feeds rules k r = true -> rule_matches r' w = true ->
  In (C (r_out r)) (map icode (firstn (rule_len r') w)) -> feeds rules (S k) r' = true.
Proof.
  intros Hr Hf Hm Hin. apply feeds_S. exists r. split; [exact Hr|]. split; [exact Hf|].
  apply andb_true_iff in Hm. destruct Hm as (Hm & _).
  apply feeds1_spec. rewrite <- (codes_match_map _ _ Hm). exact Hin.
Qed.

Lemma prefix_copied_or_created : forall k code out,
  opt_run rules code out -> quiet k code ->
  forall m, firstn m out = firstn m code \/
            exists r, In r rules /\ feeds rules k r = true /\
                      In (C (r_out r)) (map icode (firstn m out)).
Proof.
  intros k code out Hrel. induction Hrel as [|i rest out Hfm Hrel IH|i rest r out Hfm Hrel IH];
    intros Hq [|m]; try (left; reflexivity); cbn [firstn map In].
  - destruct (IH (quiet_app k [i] rest Hq) m) as [->|(r & Hr & Hf & Hin)];
      [left; reflexivity|right; exists r; auto].
  - right. exists r. destruct (fired k _ r Hq Hfm). auto.
Qed.

Lemma pass_quiet : forall k code out,
  opt_run rules code out -> quiet k code -> quiet (S k) out.
Proof.
  intros k code out Hrel.
  induction Hrel as [|i rest out Hfm Hrel IH|i rest r out Hfm Hrel IH]; intros Hq.
  - intros [|x p] w r Heq Hin Hm; [|discriminate]. cbn [app] in Heq. subst w.
    destruct (matched_nonempty r [] Hin Hm) as (_ & _ & _ & _ & [=]).
  - apply quiet_cons; [|exact (IH (quiet_app k [i] rest Hq))]. intros r' Hin' Hm'.
    destruct (prefix_copied_or_created k _ _ (OR_copy rules i rest out Hfm Hrel) Hq (rule_len r'))
      as [Hpre|(r & Hr & Hf & Hin)]; [|exact (link k r r' _ Hr Hf Hm' Hin)].
    (* window made of copied instructions only: r' matched in the input, where no rule did *)
    rewrite <- rule_matches_firstn, Hpre, rule_matches_firstn in Hm' by exact (in_wf r' Hin').
    rewrite (first_match_none _ _ Hfm r' Hin') in Hm'. discriminate.
  - apply quiet_cons.
    + (* the match starts at the created instruction *)
      intros r' Hin' Hm'. destruct (fired k _ r Hq Hfm) as (Hr & Hf).
      apply (link k r r' _ Hr Hf Hm').
      destruct (matched_nonempty r' _ Hin' Hm') as (m & _ & _ & -> & _). left. reflexivity.
    + apply IH, (quiet_app k (firstn (rule_len r) (i :: rest))). rewrite firstn_skipn. exact Hq.
Qed.

Lemma iter_quiet : forall n k code,
  quiet k code -> quiet (n + k) (iter_opt n rules code).
Proof.
  induction n as [|n IH]; intros k code Hq; [exact Hq|].
  cbn [iter_opt]. rewrite Nat.add_succ_comm.
  exact (IH (S k) _ (pass_quiet k code _ (opt_run_do_optimize code) Hq)).
Qed.

Lemma quiet_no_chain_fixed n : no_chain n rules = true ->
  forall code, quiet n code -> forall fuel, do_optimize_fuel fuel rules code = code.
Proof.
  intros Hnc. induction code as [|i rest IH]; intros Hq [|f]; try reflexivity.
  cbn [do_optimize_fuel]. destruct (first_match rules (i :: rest)) as [r|] eqn:Hfm.
  - destruct (fired n _ r Hq Hfm) as (Hr & Hf).
    rewrite (proj1 (no_chain_spec n rules) Hnc r Hr) in Hf. discriminate.
  - f_equal. exact (IH (quiet_app n [i] rest Hq) f).
Qed.

End General.

Theorem fixpoint_after_n : forall n rules,
  chain_free n rules = true ->
  forall code, do_optimize rules (iter_opt n rules code) = iter_opt n rules code.
Proof.
  intros n rules Hcf code. apply andb_true_iff in Hcf. destruct Hcf as (Hwf & Hnc).
  apply (quiet_no_chain_fixed rules n Hnc). rewrite <- (Nat.add_0_r n) at 1.
  apply (iter_quiet rules Hwf). intros p w r _ _ _. reflexivity.
Qed.

Theorem fixpoint_after_two : forall rules,
  chain_free 2 rules = true ->
  forall code, do_optimize rules (iter_opt 2 rules code) = iter_opt 2 rules code.
Proof. intros rules. apply (fixpoint_after_n 2). Qed.

Lemma iter_opt_fixed : forall rules x,
  do_optimize rules x = x -> forall m, iter_opt m rules x = x.
Proof.
  intros rules x Hx. induction m as [|m IH]; [reflexivity|]. cbn [iter_opt]. rewrite Hx. exact IH.
Qed.

Lemma iter_opt_add : forall rules a b code,
  iter_opt (a + b) rules code = iter_opt b rules (iter_opt a rules code).
Proof.
  intros rules. induction a as [|a IH]; intros b code; [reflexivity|].
  cbn [Nat.add iter_opt]. apply IH.
Qed.

Theorem more_passes_same : forall n rules,
  chain_free n rules = true ->
  forall m code, iter_opt (n + m) rules code = iter_opt n rules code.
Proof.
  intros n rules Hcf m code. rewrite iter_opt_add.
  apply iter_opt_fixed. apply fixpoint_after_n. exact Hcf.
Qed.

(* In the generated table only LOCALGET;INCDEC;LOCALSET is fed at all (by the two
   rules that make an INCDEC), and nothing matches its LOCALINCDEC. *)
Lemma peephole_wf : rules_wf peephole_rules = true.
Proof. vm_compute. reflexivity. Qed.

Lemma peephole_chain_free : chain_free optimize_passes peephole_rules = true.
Proof.
  apply andb_true_intro. split; [exact peephole_wf|].
  apply no_chain_ends. vm_compute. reflexivity.
Qed.

Theorem c02_reoptimize_stable : forall code,
  do_optimize peephole_rules (iter_opt optimize_passes peephole_rules code)
  = iter_opt optimize_passes peephole_rules code.
Proof. apply fixpoint_after_n. exact peephole_chain_free. Qed.

Theorem c02_optimize_idempotent : forall on code,
  optimize on (optimize on code) = optimize on code.
Proof.
  intros on code. destruct on; [|reflexivity]. unfold optimize.
  apply iter_opt_fixed. apply c02_reoptimize_stable.
Qed.

(* the compiler computes jump offsets from the optimised length of inner blocks;
   re-optimising (by one raw pass, by optimize, or by any number of passes) keeps the length *)
Corollary c02_length_stable : forall code,
  List.length (do_optimize peephole_rules (optimize true code)) = List.length (optimize true code)
  /\ List.length (optimize true (optimize true code)) = List.length (optimize true code)
  /\ forall m, List.length (iter_opt m peephole_rules (optimize true code)) = List.length (optimize true code).
Proof.
  intros code. split; [|split].
  - unfold optimize. rewrite c02_reoptimize_stable. reflexivity.
  - rewrite c02_optimize_idempotent. reflexivity.
  - intros m. unfold optimize. rewrite iter_opt_fixed; [reflexivity|apply c02_reoptimize_stable].
Qed.

Corollary c02_fuel_independent : forall fuel code,
  List.length code <= fuel ->
  do_optimize_fuel fuel peephole_rules code = do_optimize peephole_rules code.
Proof. apply fuel_independent. exact peephole_wf. Qed.

(* global: a file that imports this one gets this I, not the proof of True *)
Definition I (name : string) (a : Z) : instr := mkI (C name) a 0 0 0.

(* ONE pass is not enough for the generated table: a = a + 1 *)
Definition incr_code : list instr :=
  [I "codeLocalGet" 3; I "codePush" 1; I "codeAdd" 0; I "codeLocalSet" 3].

(* PUSH;ADD -> INCDEC (position 13 of the table) feeds LOCALGET;INCDEC;LOCALSET -> LOCALINCDEC (position 0) *)
Example one_pass_not_chain_free : chain_free 1 peephole_rules = false.
Proof.
  eapply (chain_not_free 1 peephole_rules 0); [reflexivity|].
  eapply (feeds_nth peephole_rules 0 13); reflexivity.
Qed.

Example one_pass_not_fixpoint :
  iter_opt 1 peephole_rules incr_code
    = [I "codeLocalGet" 3; mkI (C "codeIncDec") 1 0 0 0; I "codeLocalSet" 3]
  /\ do_optimize peephole_rules (iter_opt 1 peephole_rules incr_code)
    = [mkI (C "codeLocalIncDec") 3 1 0 0]
  /\ do_optimize peephole_rules (iter_opt 1 peephole_rules incr_code)
     <> iter_opt 1 peephole_rules incr_code.
Proof. vm_compute. repeat split. discriminate. Qed.

(* adding  PUSH; INCDEC -> PUSH  (position 16, after the 16 generated rules) creates the chain
   (PUSH;ADD->INCDEC) -> (PUSH;INCDEC->PUSH) -> (PUSH;ADD->INCDEC): a third pass changes the code *)
Definition rule_push_incdec : rule :=
  mkRule ["codePush"; "codeIncDec"] [] "codePush" (OField 0 FA) OZero OZero 1.
Definition rules_b1 : list rule := peephole_rules ++ [rule_push_incdec].
Definition code_b1 : list instr :=
  [I "codePush" 1; I "codePush" 2; I "codeAdd" 0; I "codeAdd" 0].

Example b1_wf_but_chain : rules_wf rules_b1 = true /\ no_chain 2 rules_b1 = false
                          /\ chain_free 2 rules_b1 = false.
Proof.
  split; [vm_compute; reflexivity|].
  eapply (chain_not_free 2 rules_b1 13); [reflexivity|].
  eapply (feeds_nth rules_b1 1 16); [reflexivity| |reflexivity].
  eapply (feeds_nth rules_b1 0 13); reflexivity.
Qed.

Example b1_third_pass_changes :
  iter_opt 2 rules_b1 code_b1 = [mkI (C "codePush") 1 0 0 0; I "codeAdd" 0]
  /\ do_optimize rules_b1 (iter_opt 2 rules_b1 code_b1) = [mkI (C "codeIncDec") 1 0 0 0]
  /\ do_optimize rules_b1 (iter_opt 2 rules_b1 code_b1) <> iter_opt 2 rules_b1 code_b1.
Proof. vm_compute. repeat split. discriminate. Qed.

(* adding  INCDEC; INCDEC -> INCDEC  at position 16 (a self-chain: out is one of its own pattern opcodes) *)
Definition rule_incdec_incdec : rule :=
  mkRule ["codeIncDec"; "codeIncDec"] [] "codeIncDec" (OField 0 FA) OZero OZero 1.
Definition rules_b2 : list rule := peephole_rules ++ [rule_incdec_incdec].
Definition code_b2 : list instr :=
  [I "codePush" 1; I "codeAdd" 0; I "codePush" 1; I "codeAdd" 0;
   I "codePush" 1; I "codeAdd" 0; I "codePush" 1; I "codeAdd" 0].

Example b2_self_chain : feeds1 rule_incdec_incdec rule_incdec_incdec = true
                        /\ rules_wf rules_b2 = true /\ chain_free 2 rules_b2 = false
                        /\ forall n, chain_free n [rule_incdec_incdec] = false.
Proof.
  assert (H1 : feeds1 rule_incdec_incdec rule_incdec_incdec = true) by reflexivity.
  split; [exact H1|]. split; [vm_compute; reflexivity|].
  split; [|intros n].
  - apply (chain_not_free 2 rules_b2 16 rule_incdec_incdec eq_refl), (feeds_self rules_b2 16 _ eq_refl H1).
  - apply (chain_not_free n [rule_incdec_incdec] 0 _ eq_refl), (feeds_self [rule_incdec_incdec] 0 _ eq_refl H1).
Qed.

Example b2_third_pass_changes :
  List.length (iter_opt 1 rules_b2 code_b2) = 4
  /\ List.length (iter_opt 2 rules_b2 code_b2) = 2
  /\ List.length (do_optimize rules_b2 (iter_opt 2 rules_b2 code_b2)) = 1
  /\ do_optimize rules_b2 (iter_opt 2 rules_b2 code_b2) <> iter_opt 2 rules_b2 code_b2.
Proof. vm_compute. repeat split. discriminate. Qed.

(* Why chain_free contains the well-formedness part: the chain condition ALONE does
   not imply the fixpoint property for arbitrary rule tables. *)

(* a rule with an EMPTY pattern matches everywhere and consumes nothing: each pass
   inserts instructions (until the fuel runs out), the code grows for ever.  There is no
   chain at all, since the rule has no pattern opcode. *)
Definition rule_empty : rule := mkRule [] [] "codePass" OZero OZero OZero 0.

Example empty_pattern_counterexample :
  (forall n, no_chain (S n) [rule_empty] = true)
  /\ rules_wf [rule_empty] = false
  /\ List.length (iter_opt 2 [rule_empty] [I "codeAdd" 0]) = 7
  /\ List.length (do_optimize [rule_empty] (iter_opt 2 [rule_empty] [I "codeAdd" 0])) = 15.
Proof.
  split.
  - intros n. unfold no_chain. cbn [forallb feeds existsb].
    change (feeds1 rule_empty rule_empty) with false.
    rewrite andb_false_r. reflexivity.
  - vm_compute. repeat split.
Qed.

(* a side condition that looks BEYOND the rule's window (here: at the next instruction)
   can be switched on by an instruction created next to -- not inside -- the window. *)
Definition rule_lookahead : rule :=
  mkRule ["codeReturn"] [CConst 1 FA 0] "codeZero" OZero OZero OZero 0.
Definition rule_mk_zero : rule :=
  mkRule ["codeLt"; "codeGt"] [] "codeDiv" OZero OZero OZero 0.
Definition rules_lookahead : list rule := [rule_lookahead; rule_mk_zero].
Definition code_lookahead : list instr := [I "codeReturn" 7; I "codeLt" 5; I "codeGt" 5].

Example lookahead_counterexample :
  no_chain 1 rules_lookahead = true
  /\ rules_wf rules_lookahead = false
  /\ iter_opt 1 rules_lookahead code_lookahead = [I "codeReturn" 7; mkI (C "codeDiv") 0 0 0 0]
  /\ do_optimize rules_lookahead (iter_opt 1 rules_lookahead code_lookahead)
     = [mkI (C "codeZero") 0 0 0 0; mkI (C "codeDiv") 0 0 0 0].
Proof. vm_compute. repeat split. Qed.

(* opcode NAMES are not enough: two names may denote the same number (here two names
   unknown to the opcode table both denote -999); a name-based chain test sees no link
   between these two rules, but the instruction created by the first is matched by the second. *)
Definition rule_alias1 : rule := mkRule ["codePush"] [] "codeFoo" OZero OZero OZero 0.
Definition rule_alias2 : rule := mkRule ["codeBar"] [] "codeAdd" OZero OZero OZero 0.

Example alias_counterexample :
  existsb (String.eqb (r_out rule_alias1)) (r_codes rule_alias2) = false   (* no link by name *)
  /\ feeds1 rule_alias1 rule_alias2 = true                                 (* link by number *)
  /\ chain_free 1 [rule_alias1; rule_alias2] = false
  /\ chain_free 2 [rule_alias1; rule_alias2] = true
  /\ iter_opt 1 [rule_alias1; rule_alias2] [I "codePush" 1] = [mkI (-999) 0 0 0 0]
  /\ iter_opt 2 [rule_alias1; rule_alias2] [I "codePush" 1] = [mkI (C "codeAdd") 0 0 0 0].
Proof. vm_compute. repeat split. Qed.

Print Assumptions fixpoint_after_n.
Print Assumptions fixpoint_after_two.
Print Assumptions more_passes_same.
Print Assumptions fuel_independent.
Print Assumptions c02_reoptimize_stable.
Print Assumptions c02_optimize_idempotent.
Print Assumptions c02_length_stable.
Print Assumptions c02_fuel_independent.
