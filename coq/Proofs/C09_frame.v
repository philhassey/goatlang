(* C09, frame isolation at every call depth.  Whatever lies below the operands a piece of
   code works on ([lo]: the caller's pending operands, and below them in the Go code the
   operands of every outer frame) is neither read nor changed by running that code, however
   deep the calls inside it nest: executing on [ops ++ lo] is executing on [ops] with [lo]
   carried along underneath.  Proved for every instruction ([step1_frame]) and then, by
   induction on the fuel over the mutual fixpoint, for [exec] and [call_fn] together.
   The only outcome excluded is [RStuck] on the short stack: an operand access below [ops]
   (which the longer stack would satisfy from [lo]). *)
From Coq Require Import ZArith String List Bool Lia.
From GV Require Import GoSpec.GoPrim Gen.ValueOps_gen Gen.Tables_gen Model.VM Proofs.VM_step Proofs.C09_call.
Import ListNotations.
Open Scope Z_scope.

Definition lift_s (lo : list value) (r : sres) : sres :=
  match r with
  | SNext sl ops s => SNext sl (ops ++ lo)%list s
  | SJump d sl ops s => SJump d sl (ops ++ lo)%list s
  | SCall p fa a b sl ops s => SCall p fa a b sl (ops ++ lo)%list s
  | SRet sl ops s => SRet sl (ops ++ lo)%list s
  | r => r
  end.

Definition lift_r (lo : list value) (r : result) : result :=
  match r with RDone sl ops s => RDone sl (ops ++ lo)%list s | r => r end.

Definition lift_c (lo : list value) (r : cres) : cres :=
  match r with COk ops s => COk (ops ++ lo)%list s | r => r end.

(* R is the outcome on the short stack ops, L the outcome on ops ++ lo *)
Definition frame_ok_s (lo : list value) (R L : sres) : Prop :=
  match R with SStuck _ => True | r => L = lift_s lo r end.
Definition frame_ok_r (lo : list value) (R L : result) : Prop :=
  match R with RStuck _ => True | r => L = lift_r lo r end.
Definition frame_ok_c (lo : list value) (R L : cres) : Prop :=
  match R with CErr (RStuck _) => True | r => L = lift_c lo r end.

Lemma slift_frame lo r s k k' :
  (forall v, frame_ok_s lo (k v) (k' v)) -> frame_ok_s lo (slift r s k) (slift r s k').
Proof. intros H. destruct r; [apply H|reflexivity..]. Qed.

Lemma finish_lift nargs nrets xRets pos types rest lo r :
  finish nargs nrets xRets pos types (rest ++ lo) r = lift_c lo (finish nargs nrets xRets pos types rest r).
Proof.
  unfold finish. destruct r; try reflexivity.
  destruct (zlen (rev ops) <? nrets); [reflexivity|].
  destruct (zlen (rev ops) <? xRets); [reflexivity|].
  cbn [lift_c]. now rewrite app_assoc.
Qed.

Section Frame.
  Variable grow : Z -> Z -> Z.
  Variable ext_get : st -> value -> value -> option (res value).
  Variable ext_set : st -> value -> value -> value -> option (res st).
  Variable ext_len : st -> value -> option Z.
  Variable ext_getattr : st -> value -> Z -> option (res (value * st)).
  Variable ext_setattr : st -> value -> Z -> value -> option (res st).

  Notation stepf := (step1 grow ext_get ext_set ext_len ext_getattr ext_setattr).
  Notation execf := (exec grow ext_get ext_set ext_len ext_getattr ext_setattr).
  Notation callf := (call_fn grow ext_get ext_set ext_len ext_getattr ext_setattr).
  Notation exec_S := (exec_S grow ext_get ext_set ext_len ext_getattr ext_setattr).

  (* One case split of the run on [ops], mirrored in the run on [ops ++ lo]: a scrutinee is either the
     same term in both, or [ops] itself (then [app] computes on the other side), or a [popn]. *)
  Ltac frame_step lo :=
    lazymatch goal with
    | |- frame_ok_s lo (slift _ _ _) _ => apply slift_frame; intro
    | |- frame_ok_s lo (match popn ?n ?o ?acc with _ => _ end) _ =>
        let E := fresh in
        destruct (popn n o acc) as [[? ?]|] eqn:E; [rewrite (popn_frame _ _ _ _ _ lo E)|]; cbv iota
    | |- frame_ok_s lo (match ?x with _ => _ end) _ => destruct x; cbn [app]
    | |- frame_ok_s lo (SNext _ (if ?b then _ else _) _) _ => destruct b
    end.

  (* The run on [ops ++ lo] is the run on [ops] with [ops ++ lo] put for [ops]: once step1 is reduced to
     the branch of the opcode for [ops], the other run is that branch read as a function of the stack, and
     the kernel only has to follow step1 to the same branch to see it. *)
  Ltac other_run lo :=
    lazymatch goal with
    | EL : ?L = VM.step1 _ _ _ _ _ _ _ _ _ _ (?ops ++ lo)%list _ |- frame_ok_s lo ?R ?L =>
        let F := eval pattern ops in R in
        lazymatch F with ?G _ => change (L = G (ops ++ lo)%list) in EL end; cbv beta in EL; subst L
    end.

  Lemma step1_frame codes pc i slots ops s lo :
    frame_ok_s lo (stepf codes pc i slots ops s) (stepf codes pc i slots (ops ++ lo)%list s).
  Proof.
    remember (stepf codes pc i slots (ops ++ lo)%list s) as L eqn:EL.
    by_opcode i; [ other_run lo .. | rewrite step1_other in EL by exact Hc; subst L; destruct (icode i <? 0); reflexivity ];
      repeat frame_step lo; first [exact I | reflexivity].
  Qed.

  (* a call: the callee's body runs on an empty operand stack of its own, so whatever the call
     does not pop as arguments is handed back untouched; the outcome does not depend on it *)
  Lemma call_frame fuel pack fa xArgs xRets pos ops s lo :
    frame_ok_c lo (callf fuel pack fa xArgs xRets pos ops s)
                  (callf fuel pack fa xArgs xRets pos (ops ++ lo)%list s).
  Proof.
    destruct fuel; [reflexivity|]. rewrite !call_fn_pre.
    pose proof (call_pre_frame pack fa xArgs xRets pos ops s lo) as F. unfold pre_under in F.
    destruct (call_pre pack fa xArgs xRets pos ops s) as [[o s'|r]|[e rest]].
    - now rewrite F.
    - destruct r; try exact I; now rewrite F.
    - rewrite F, finish_lift. now destruct (finish _ _ _ _ _ rest _) as [|[]].
  Qed.

  Lemma exec_frame fuel : forall codes pc slots ops s lo,
    frame_ok_r lo (execf fuel codes pc slots ops s) (execf fuel codes pc slots (ops ++ lo)%list s).
  Proof.
    induction fuel as [|f IH]; intros codes pc slots ops s lo; [reflexivity|].
    rewrite !exec_S.
    destruct (znth codes pc) as [i|]; [|reflexivity].
    pose proof (step1_frame codes pc i slots ops s lo) as HS. unfold frame_ok_s in HS.
    destruct (stepf codes pc i slots ops s) eqn:E; try rewrite HS; cbn [lift_s].
    - apply IH.
    - apply IH.
    - pose proof (call_frame f pack fa xArgs xRets (ipos i) ops0 s0 lo) as HC. unfold frame_ok_c in HC.
      destruct (callf f pack fa xArgs xRets (ipos i) ops0 s0) as [ops2 s2|r] eqn:EC.
      + rewrite HC. cbn [lift_c]. apply IH.
      + destruct r; try (rewrite HC; reflexivity); [|exact I].
        exfalso. eapply call_not_done, EC.
    - reflexivity.
    - reflexivity.
    - exact I.
    - reflexivity.
  Qed.

  Lemma exec_frame_ns fuel codes pc slots ops s lo :
    (forall w, execf fuel codes pc slots ops s <> RStuck w) ->
    execf fuel codes pc slots (ops ++ lo)%list s = lift_r lo (execf fuel codes pc slots ops s).
  Proof.
    intros H. pose proof (exec_frame fuel codes pc slots ops s lo) as F. unfold frame_ok_r in F.
    destruct (execf fuel codes pc slots ops s); try exact F. exfalso. eapply H. reflexivity.
  Qed.

  Lemma call_frame_ns fuel pack fa xArgs xRets pos ops s lo :
    (forall w, callf fuel pack fa xArgs xRets pos ops s <> CErr (RStuck w)) ->
    callf fuel pack fa xArgs xRets pos (ops ++ lo)%list s = lift_c lo (callf fuel pack fa xArgs xRets pos ops s).
  Proof.
    intros H. pose proof (call_frame fuel pack fa xArgs xRets pos ops s lo) as F. unfold frame_ok_c in F.
    destruct (callf fuel pack fa xArgs xRets pos ops s) as [o s'|r]; [exact F|].
    destruct r; try exact F. exfalso. eapply H. reflexivity.
  Qed.

  (* With all its xArgs arguments present, a call of a script function answers the same whatever
     lies below them, at every fuel (= however deep the calls inside nest): [lo] comes back untouched
     under the results, and errors (wrong counts, failures and stuck states of the body) are the same. *)
  Lemma call_args_frame fuel pack fa xArgs xRets pos args lo s nargs nrets variadic vtype nslots types body :
    hget s fa = Some (HFunc nargs nrets variadic vtype nslots types body) ->
    (variadic = true -> 1 <= nargs) ->
    zlen args = xArgs ->
    callf fuel pack fa xArgs xRets pos (rev args ++ lo)%list s =
      lift_c lo (callf fuel pack fa xArgs xRets pos (rev args) s).
  Proof.
    intros H HW HA. destruct fuel as [|fuel]; [reflexivity|]. rewrite !call_fn_pre.
    pose proof (call_pre_frame pack fa xArgs xRets pos (rev args) s lo) as F. unfold pre_under in F.
    pose proof (call_pre_pops pack fa xArgs xRets pos (rev args) s) as P.
    destruct (call_pre pack fa xArgs xRets pos (rev args) s) as [[o s'|r]|[e rest]].
    - now rewrite F.
    - destruct r; try now rewrite F. exfalso. apply P.
      + rewrite zlen_rev. pose proof (zlen_nonneg args). lia.
      + intros * H'. rewrite H in H'. inversion H'. subst. now apply HW.
    - rewrite F. apply finish_lift.
  Qed.
End Frame.
