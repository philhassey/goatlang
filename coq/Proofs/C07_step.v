(* C07, one instruction: if check_instr of Model/StackCheck.v accepts instruction i at the static depth
   zlen ops, then step1 of Model/VM.v either is stuck for a reason of the heap only, or leaves the slots' number
   and the state invariant st_ok intact and the operand stack at the depth the checker recorded for the successor
   pc (step_post, step_sound). *)
From Coq Require Import ZArith List String Bool Lia.
From GV Require Import GoSpec.GoPrim Gen.ValueOps_gen Gen.Tables_gen Model.VM Model.StackCheck Proofs.VM_step.
Import ListNotations.
Open Scope Z_scope.

Lemma popn_some n : forall ops acc a rest, popn n ops acc = Some (a, rest) ->
  rest = skipn n ops /\ zlen rest = zlen ops - Z.of_nat n /\ zlen a = zlen acc + Z.of_nat n.
Proof.
  induction n; intros ops acc a rest H; cbn in H.
  - inversion H; subst. cbn. repeat split; lia.
  - destruct ops as [|x r]; [discriminate|]. apply IHn in H. destruct H as (-> & H2 & H3).
    cbn [skipn]. rewrite zlen_cons in *. repeat split; lia.
Qed.
Lemma popn_none n : forall ops acc, popn n ops acc = None -> zlen ops < Z.of_nat n.
Proof.
  induction n; intros ops acc H; cbn in H; [discriminate|].
  destruct ops as [|x r]; [rewrite zlen_nil; lia|]. apply IHn in H. rewrite zlen_cons. lia.
Qed.

Lemma verify_from_spec chk : forall l pc0, verify_from chk pc0 l = true ->
  forall k i, nth_error l k = Some i -> chk (pc0 + Z.of_nat k) i = true.
Proof.
  induction l as [|x l IH]; intros pc0 H k i N; [destruct k; discriminate|].
  cbn in H. apply andb_true_iff in H. destruct H as [H1 H2]. destruct k as [|k]; cbn in N.
  - inversion N; subst. replace (pc0 + Z.of_nat 0) with pc0 by lia. exact H1.
  - replace (pc0 + Z.of_nat (S k)) with (pc0 + 1 + Z.of_nat k) by lia. eapply IH; eauto.
Qed.

Section Inv.
  Variable ng : Z.

  Local Notation obj_ok := (obj_ok ng).
  Local Notation heap_ok := (heap_ok ng).
  Local Notation st_ok := (st_ok ng).

  Lemma heap_ok_app h o : heap_ok h -> obj_ok o -> heap_ok (h ++ [o]).
  Proof. intros. apply Forall_app; split; auto. Qed.
  Lemma heap_ok_nset h : forall n o, heap_ok h -> obj_ok o -> heap_ok (nset h n o).
  Proof.
    induction h; intros n o H Ho; destruct n; cbn; auto; inversion H; subst; constructor; auto.
    apply IHh; auto.
  Qed.
  Lemma heap_ok_zset h n o : heap_ok h -> obj_ok o -> heap_ok (zset h n o).
  Proof. intros. unfold zset. destruct (n <? 0); auto. apply heap_ok_nset; auto. Qed.
  Lemma heap_ok_get s a o : st_ok s -> hget s a = Some o -> obj_ok o.
  Proof.
    intros [_ H] G. unfold hget, znth in G. destruct (a <? 0); [discriminate|].
    apply nth_error_In in G. eapply Forall_forall in H; eauto.
  Qed.

  Lemma st_ok_alloc s o : st_ok s -> obj_ok o -> st_ok (fst (alloc s o)).
  Proof. intros [H1 H2] Ho. unfold alloc; split; cbn [fst globals heap]; auto. apply heap_ok_app; auto. Qed.
  Lemma st_ok_hset s a o : st_ok s -> obj_ok o -> st_ok (hset s a o).
  Proof. intros [H1 H2] Ho. unfold hset; split; cbn [globals heap]; auto. apply heap_ok_zset; auto. Qed.
  Lemma st_ok_set_global s i v : st_ok s -> st_ok (set_global s i v).
  Proof. intros [H1 H2]. unfold set_global; split; cbn [globals heap]; auto. rewrite zlen_zset; auto. Qed.
  Lemma st_ok_new_slice s e cells : st_ok s -> st_ok (fst (new_slice s e cells)).
  Proof.
    intros H. unfold new_slice.
    pose proof (st_ok_alloc s (HArr cells) H I) as H1. destruct (alloc s (HArr cells)) as [s1 arr]. cbn [fst] in H1.
    pose proof (st_ok_alloc s1 (HSlice e arr 0 (zlen cells) (zlen cells)) H1 I) as H2.
    destruct (alloc s1 _) as [s2 h]. exact H2.
  Qed.
  Lemma st_ok_variadic_arg s vtype n vargs : st_ok s -> st_ok (fst (variadic_arg s vtype n vargs)).
  Proof.
    intros H. unfold variadic_arg. destruct (n =? 0); [exact H|]. apply st_ok_new_slice; exact H.
  Qed.
  Lemma st_ok_emit s b : st_ok s -> st_ok (emit s b). Proof. intros [? ?]; split; auto. Qed.
  Lemma st_ok_push_bt s p : st_ok s -> st_ok (push_bt s p). Proof. intros [? ?]; split; auto. Qed.
  Lemma st_ok_pop_bt s : st_ok s -> st_ok (pop_bt s). Proof. intros [? ?]; split; auto. Qed.
End Inv.

Section Step.
  Variable grow : Z -> Z -> Z.
  Variable ext_get : st -> value -> value -> option (res value).
  Variable ext_set : st -> value -> value -> value -> option (res st).
  Variable ext_len : st -> value -> option Z.
  Variable ext_getattr : st -> value -> Z -> option (res (value * st)).
  Variable ext_setattr : st -> value -> Z -> value -> option (res st).
  Variable ng : Z.
  (* objects outside the modelled fragment keep the invariant: they neither drop globals nor
     forge function objects with unchecked bodies *)
  Hypothesis ext_set_ok : forall s r k v s', st_ok ng s -> ext_set s r k v = Some (Ok s') -> st_ok ng s'.
  Hypothesis ext_getattr_ok : forall s r k v s', st_ok ng s -> ext_getattr s r k = Some (Ok (v, s')) -> st_ok ng s'.
  Hypothesis ext_setattr_ok : forall s r k v s', st_ok ng s -> ext_setattr s r k v = Some (Ok s') -> st_ok ng s'.

  Notation step1 := (VM.step1 grow ext_get ext_set ext_len ext_getattr ext_setattr).

  Variable chk_body : Z -> Z -> list instr -> bool.
  Hypothesis chk_body_sound : forall ns nr b, chk_body ns nr b = true -> exists fuel, check_code_f fuel ng ns (Some nr) b = true.
  Variables (ns : Z) (final : option Z) (codes : list instr) (m : dmap).

  Definition at_depth (pc d : Z) : Prop := 0 <= pc <= zlen codes /\ 0 <= d /\ dget m pc = Some d.

  Lemma tgt_ok_spec pc d : tgt_ok (zlen codes) m pc d = true -> at_depth pc d.
  Proof.
    unfold tgt_ok, at_depth. intro H. destruct (dget m pc) as [x|]; [|rewrite andb_false_r in H; discriminate].
    assert (x = d) by lia. subst. repeat split; try lia. 
  Qed.
  Lemma at_depth_eq pc d d' : at_depth pc d -> d = d' -> at_depth pc d'.
  Proof. intros H <-. exact H. Qed.

  Definition step_post (pc : Z) (i : instr) (d0 : Z) (r : sres) : Prop :=
    match r with
    | SNext sl ops s => zlen sl = ns /\ st_ok ng s /\ at_depth (pc + 1) (zlen ops)
    | SJump dl sl ops s => zlen sl = ns /\ st_ok ng s /\ at_depth (pc + dl + 1) (zlen ops)
    | SCall pack fa xa xr sl ops s =>
        zlen sl = ns /\ st_ok ng s /\ 0 <= xa <= zlen ops /\ 0 <= xr /\ at_depth (pc + 1) (zlen ops - xa + xr)
    | SRet sl ops s => zlen sl = ns /\ st_ok ng s /\ icode i = c_Return /\ zlen ops = d0 /\ final_ok final (zlen ops) = true
    | SStuck w => heap_reason w
    | SFail _ _ => True
    | SUnmod _ => True
    end.

  Lemma slift_post pc i d0 r s k : (forall v, step_post pc i d0 (k v)) -> step_post pc i d0 (slift r s k).
  Proof. intro H. destruct r; cbn; auto. Qed.

  Lemma refs1 n x l : refs_ok n (x :: l) = true -> 0 <= x < n /\ refs_ok n l = true.
  Proof. unfold refs_ok. cbn [forallb]. rewrite !andb_true_iff, Z.leb_le, Z.ltb_lt. tauto. Qed.
  Lemma slot_some (slots : list value) x : zlen slots = ns -> 0 <= x < ns -> exists v, znth slots x = Some v.
  Proof. intros. apply znth_lt. lia. Qed.

  (* Value.Set on the modelled containers only rewrites a backing array *)
  Lemma obj_set_ok s0 r k v s' : st_ok ng s0 -> obj_set ext_set s0 r k v = inl (Ok s') -> st_ok ng s'.
  Proof.
    intros Hs H. unfold obj_set in H.
    destruct (is_slice_tag (vt r)).
    - destruct (slice_parts s0 r) as [[[[[e arr] off] len] cap]|]; [|discriminate].
      destruct ((0 <=? Value_Int k) && (Value_Int k <? len)); [|discriminate].
      inversion H; subst. apply st_ok_hset; auto. exact I.
    - destruct (ext_set s0 r k v) as [[s1| |]|] eqn:X; try discriminate. inversion H; subst. eapply ext_set_ok; eauto.
  Qed.

  Variables (pc : Z) (i : instr) (slots ops : list value) (s : st).
  Hypothesis Hslots : zlen slots = ns.
  Hypothesis Hst : st_ok ng s.

  (* The tactics below serve step_sound alone.  Each test of check_instr that the goal's hypothesis holds yields
     either a bound on an operand (refs_ok, by refs_split) or at_depth of a successor pc (tgt_ok, by bools); step1 is
     then split along its own case analysis (head_destruct), and every leaf is zlen arithmetic on the operand stack
     (lens, props, popn_some) plus st_ok of the new state (stok, states). *)
  Ltac refs_split :=
    repeat match goal with
    | H : refs_ok _ (_ :: _) = true |- _ => apply refs1 in H; let H' := fresh H in destruct H as [H' H]
    end.
  Ltac bools := repeat match goal with
    | X : (_ && _) = true |- _ => let X1 := fresh X in apply andb_true_iff in X; destruct X as [X X1]
    end;
    repeat match goal with X : tgt_ok _ _ _ _ = true |- _ => apply tgt_ok_spec in X end.

  Ltac stok := first [ assumption | apply st_ok_set_global; stok | apply st_ok_hset; [stok | first [exact I | eapply heap_ok_get; [|eassumption]; stok]]
                     | eapply obj_set_ok; [|eassumption]; stok
                     | eapply ext_set_ok; [|eassumption]; stok
                     | eapply ext_getattr_ok; [|eassumption]; stok
                     | eapply ext_setattr_ok; [|eassumption]; stok ].

  (* facts about the states produced by allocation *)
  Ltac states :=
    repeat match goal with
    | X : alloc ?s0 ?o = (?s1, _) |- _ =>
        lazymatch goal with
        | _ : st_ok ng s1 |- _ => fail
        | _ => let K := fresh "K" in
               assert (K : st_ok ng s1) by (let Y := fresh in pose proof (st_ok_alloc ng s0 o) as Y; rewrite X in Y; apply Y; [stok | repeat match goal with |- context[match ?x with _ => _ end] => destruct x end; exact I])
        end
    | X : new_slice ?s0 ?e ?c = (?s1, _) |- _ =>
        lazymatch goal with
        | _ : st_ok ng s1 |- _ => fail
        | _ => let K := fresh "K" in
               assert (K : st_ok ng s1) by (let Y := fresh in pose proof (st_ok_new_slice ng s0 e c) as Y; rewrite X in Y; apply Y; stok)
        end
    end.

  Ltac lens :=
    rewrite ?zlen_cons, ?zlen_nil, ?zlen_zset;
    repeat match goal with
    | H : context [zlen (_ :: _)] |- _ => rewrite zlen_cons in H
    | H : context [zlen (zset _ _ _)] |- _ => rewrite zlen_zset in H
    | H : context [zlen []] |- _ => rewrite zlen_nil in H
    end.
  Ltac props :=
    repeat match goal with
    | H : (_ <=? _) = true |- _ => apply Z.leb_le in H
    | H : (_ <=? _) = false |- _ => apply Z.leb_gt in H
    | H : (_ <? _) = true |- _ => apply Z.ltb_lt in H
    | H : (_ <? _) = false |- _ => apply Z.ltb_ge in H
    | H : (_ =? _) = true |- _ => apply Z.eqb_eq in H
    | H : (_ =? _) = false |- _ => apply Z.eqb_neq in H
    end.

  Ltac depth_goal :=
    match goal with X : at_depth ?p _ |- at_depth ?p _ => apply (at_depth_eq _ _ _ X); lens; lia end.
  Ltac tail_goal :=
    lazymatch goal with
    | |- at_depth _ _ => depth_goal
    | |- final_ok _ _ = true => assumption
    | |- _ /\ _ => split; [lia || reflexivity | tail_goal]
    end.

  Ltac leaf :=
    cbn [step_post]; props;
    repeat match goal with
    | X : popn _ _ _ = Some (_, _) |- _ => apply popn_some in X; destruct X as (_ & ? & ?)
    | X : popn _ _ _ = None |- _ => apply popn_none in X
    end;
    lazymatch goal with
    | |- True => exact I
    | |- heap_reason _ => first [ left; reflexivity | right; reflexivity | exfalso ]; lens;
        repeat match goal with
        | X : znth _ _ = None |- _ => apply znth_none in X
        end; unfold st_ok in *; lia
    | |- _ => states; lens; split; [lens; lia|]; split; [stok|]; tail_goal
    end.

  Ltac head_destruct :=
    lazymatch goal with
    | |- step_post _ _ _ (slift _ _ _) => apply slift_post; intro
    | |- step_post _ _ _ (match ?x with _ => _ end) => destruct x eqn:?
    | |- step_post _ _ _ (if ?x then _ else _) => destruct x eqn:?
    | |- step_post _ _ _ (let (_, _) := ?x in _) => destruct x eqn:?
    end.
  Ltac crush := repeat head_destruct; leaf.

  Lemma step_sound :
    0 <= pc ->
    check_instr chk_body ng ns final codes (zlen codes) m pc i (zlen ops) = true ->
    step_post pc i (zlen ops) (step1 codes pc i slots ops s).
  Proof.
    intros Hpc.
    by_opcode i; [ unfold check_instr, effect, slot_refs, global_refs, is_binop, is_localbin, is_unop; opcode_case ..
                 | destruct (icode i <? 0); exact (fun _ => I) ].
    (* what is left of the checker's tests: the opcodes outside Model/VM.v, the sign of the opcode, and the
       operand-dependent cases of FUNC, FASTCALLATTR, ITER, APPEND and COPY *)
    all: cbv beta iota delta [c_NewMap c_GetOk c_Delete c_Struct c_GlobalStruct c_NewStruct c_SetMethod orb];
      try match goal with |- context [Z.ltb ?a 0] =>
            lazymatch a with Zpos _ => change (Z.ltb a 0) with false | Z0 => change (Z.ltb a 0) with false
                        | Zneg _ => change (Z.ltb a 0) with true end end; cbv iota.
    all: repeat match goal with
         | |- context [splitParams ?x] => destruct (splitParams x) as [? ?] eqn:?
         | |- context [if ?x <? 1 then EBad _ else _] => destruct (x <? 1) eqn:?
         | |- context [if ?x =? 0 then 0 else 1] => destruct (x =? 0) eqn:?
         end; cbv iota.
    all: try (intros H; (discriminate H || (bools; refs_split; crush))).
    (* FUNC: the checker has verified the body that the instruction skips *)
    intros He. bools.
    match goal with X : chk_body _ _ _ = true |- _ => apply chk_body_sound in X; destruct X as [fuel Hbody] end.
    unfold func_body in Hbody.
    match goal with |- context [firstn (Z.to_nat ?n) (skipn _ codes)] =>
      set (tokens := firstn (Z.to_nat n) (skipn (Z.to_nat (pc + 1)) codes)) in * end.
    match goal with |- context [zlen tokens <? ?n] =>
      assert (Htok : ~ zlen tokens < n) by (subst tokens; rewrite zlen_firstn, zlen_skipn; lia) end.
    apply Z.ltb_nlt in Htok. rewrite Htok.
    match goal with |- context[alloc s ?o] =>
      assert (Ho : obj_ok ng o);
      [| pose proof (st_ok_alloc ng s o Hst Ho) as K; destruct (alloc s o) as [s1 a']; cbn [fst] in K ]
    end.
    { cbn [obj_ok]. repeat split; try lia.
      - rewrite zlen_map, zlen_firstn. subst tokens. rewrite zlen_firstn, zlen_skipn. lia.
      - eauto. }
    cbn [step_post]. split; [assumption|]. split; [assumption|].
    match goal with X : at_depth _ _ |- _ => apply (at_depth_eq _ _ _ X) end. rewrite zlen_cons. lia.
  Qed.
End Step.

