(* The cell-array level of the robin-hood table: well-formedness, probing, insert,
   reinsert (resize) and the backward shift.  [probe] is not in the model: it is the one
   search loop that C12_intmap rewrites every probing loop of Model/IntMap.v to. *)
From Coq Require Import ZArith List Bool Lia PeanoNat.
From GV Require Import Model.IntMap Proofs.C12_cyc.
Import ListNotations.

Section Table.
  Context {V : Type}.
  Variable vzero : V.

  Notation cell := (@cell V).
  Notation get_cell := (get_cell vzero).

  Definition occ (c : cell) : bool := negb (cdist c =? 0).
  Definition dist_at (cs : list cell) (p : nat) : nat := cdist (get_cell cs p).
  Definition key_at (cs : list cell) (p : nat) : Z := ckey (get_cell cs p).
  Definition val_at (cs : list cell) (p : nat) : V := cval (get_cell cs p).
  Definition count (cs : list cell) : nat := length (filter occ cs).

  Lemma occ_true : forall c, occ c = true <-> cdist c <> 0.
  Proof.
    intros c. unfold occ. destruct (Nat.eqb_spec (cdist c) 0); cbn; split; intros; try lia; congruence.
  Qed.

  Lemma occ_false : forall c, occ c = false <-> cdist c = 0.
  Proof.
    intros c. unfold occ. destruct (Nat.eqb_spec (cdist c) 0); cbn; split; intros; try lia; congruence.
  Qed.

  Lemma length_set_cell : forall (cs : list cell) i c, length (set_cell cs i c) = length cs.
  Proof.
    induction cs as [|x r IH]; intros i c; [reflexivity|].
    destruct i; cbn [set_cell length]; [reflexivity|]. rewrite IH. reflexivity.
  Qed.

  Lemma get_set_eq : forall (cs : list cell) i c, i < length cs -> get_cell (set_cell cs i c) i = c.
  Proof.
    unfold IntMap.get_cell.
    induction cs as [|x r IH]; intros i c Hi; cbn [length] in Hi; [lia|].
    destruct i; cbn [set_cell nth]; [reflexivity|]. apply IH. lia.
  Qed.

  Lemma get_set_neq : forall (cs : list cell) i j c, i <> j -> get_cell (set_cell cs i c) j = get_cell cs j.
  Proof.
    unfold IntMap.get_cell.
    induction cs as [|x r IH]; intros i j c Hne; [reflexivity|].
    destruct i, j; cbn [set_cell nth]; try reflexivity; try lia.
    apply IH. lia.
  Qed.

  Lemma d_set_eq : forall cs i c, i < length cs -> dist_at (set_cell cs i c) i = cdist c.
  Proof. intros. unfold dist_at. rewrite get_set_eq; auto. Qed.
  Lemma d_set_neq : forall cs i j c, i <> j -> dist_at (set_cell cs i c) j = dist_at cs j.
  Proof. intros. unfold dist_at. rewrite get_set_neq; auto. Qed.
  Lemma key_set_eq : forall cs i c, i < length cs -> key_at (set_cell cs i c) i = ckey c.
  Proof. intros. unfold key_at. rewrite get_set_eq; auto. Qed.
  Lemma key_set_neq : forall cs i j c, i <> j -> key_at (set_cell cs i c) j = key_at cs j.
  Proof. intros. unfold key_at. rewrite get_set_neq; auto. Qed.
  Lemma val_set_eq : forall cs i c, i < length cs -> val_at (set_cell cs i c) i = cval c.
  Proof. intros. unfold val_at. rewrite get_set_eq; auto. Qed.
  Lemma val_set_neq : forall cs i j c, i <> j -> val_at (set_cell cs i c) j = val_at cs j.
  Proof. intros. unfold val_at. rewrite get_set_neq; auto. Qed.

  Lemma count_set_cell : forall (cs : list cell) i c, i < length cs ->
    count (set_cell cs i c) + (if dist_at cs i =? 0 then 0 else 1)
    = count cs + (if cdist c =? 0 then 0 else 1).
  Proof.
    unfold count, dist_at, IntMap.get_cell, occ.
    induction cs as [|x r IH]; intros i c Hi; cbn [length] in Hi; [lia|].
    destruct i; cbn [set_cell nth filter].
    - destruct (cdist c =? 0), (cdist x =? 0); cbn [negb length]; lia.
    - specialize (IH i c ltac:(lia)).
      destruct (cdist x =? 0); cbn [negb length]; lia.
  Qed.

  Lemma exists_empty : forall (cs : list cell), count cs < length cs ->
    exists e, e < length cs /\ dist_at cs e = 0.
  Proof.
    unfold count, dist_at, IntMap.get_cell.
    induction cs as [|x r IH]; intros H; cbn [length] in H; [lia|].
    cbn [filter] in H.
    destruct (occ x) eqn:Ex.
    - cbn [length] in H. destruct IH as [e [He Hd]]; [lia|].
      exists (S e). split; [cbn [length]; lia | exact Hd].
    - exists 0. split; [cbn [length]; lia|]. cbn [nth]. apply occ_false. exact Ex.
  Qed.

  Section WF.
    Variable n : nat.
    Hypothesis Hn2 : 2 <= n.

    Definition dist_ok (cs : list cell) : Prop :=
      forall p, p < n -> dist_at cs p <> 0 -> dist_at cs p = S (cyc_dist n (home n (key_at cs p)) p).
    Definition ord_ok (cs : list cell) : Prop :=
      forall p, p < n -> dist_at cs (next n p) <= S (dist_at cs p).
    Definition uniq_ok (cs : list cell) : Prop :=
      forall p q, p < n -> q < n -> dist_at cs p <> 0 -> dist_at cs q <> 0 -> key_at cs p = key_at cs q -> p = q.
    Definition uniq_ex (x : nat) (cs : list cell) : Prop :=
      forall p q, p < n -> q < n -> p <> x -> q <> x ->
        dist_at cs p <> 0 -> dist_at cs q <> 0 -> key_at cs p = key_at cs q -> p = q.

    Record WF (cs : list cell) : Prop := mkWF {
      wf_len : length cs = n;
      wf_dist : dist_ok cs;
      wf_ord : ord_ok cs;
      wf_uniq : uniq_ok cs }.

    Definition HasKV (cs : list cell) (k : Z) (v : V) : Prop :=
      exists q, q < length cs /\ dist_at cs q <> 0 /\ key_at cs q = k /\ val_at cs q = v.
    Definition HasKVex (x : nat) (cs : list cell) (k : Z) (v : V) : Prop :=
      exists q, q < length cs /\ q <> x /\ dist_at cs q <> 0 /\ key_at cs q = k /\ val_at cs q = v.

    Let Hn : 0 < n. Proof. lia. Qed.

    Lemma dist_le_at : forall cs e, ord_ok cs -> e < n -> dist_at cs e = 0 ->
      forall j, dist_at cs (cyc_at n e j) <= j.
    Proof.
      intros cs e Ho He Hd. induction j as [|j IH].
      - rewrite at_0 by exact He. lia.
      - rewrite <- next_at by exact Hn.
        pose proof (Ho (cyc_at n e j) (at_lt n e j Hn)). lia.
    Qed.

    Lemma dist_le_cd : forall cs e q, ord_ok cs -> e < n -> dist_at cs e = 0 -> q < n ->
      dist_at cs q <= cyc_dist n e q.
    Proof.
      intros cs e q Ho He Hd Hq.
      pose proof (dist_le_at cs e Ho He Hd (cyc_dist n e q)) as H.
      rewrite at_cd in H by auto. exact H.
    Qed.

    Lemma dist_ok_set : forall cs i c, length cs = n -> i < n -> dist_ok cs ->
      (cdist c <> 0 -> cdist c = S (cyc_dist n (home n (ckey c)) i)) -> dist_ok (set_cell cs i c).
    Proof.
      intros cs i c Hl Hi Hdi Hc q Hq. destruct (Nat.eq_dec i q) as [E|E].
      - subst q. rewrite d_set_eq, key_set_eq by lia. exact Hc.
      - rewrite d_set_neq, key_set_neq by exact E. apply Hdi, Hq.
    Qed.

    Lemma ord_ok_set : forall cs i c, length cs = n -> i < n -> ord_ok cs ->
      (forall q, q < n -> next n q = i -> cdist c <= S (dist_at cs q)) -> dist_at cs (next n i) <= S (cdist c) ->
      ord_ok (set_cell cs i c).
    Proof.
      intros cs i c Hl Hi Ho Hprev Hnext q Hq.
      pose proof (next_neq n q Hn2 Hq) as Hnn.
      destruct (Nat.eq_dec i (next n q)) as [E1|E1].
      - rewrite <- E1, d_set_eq, d_set_neq by (congruence || lia). apply Hprev; auto.
      - rewrite (d_set_neq cs i (next n q)) by exact E1.
        destruct (Nat.eq_dec i q) as [E2|E2].
        + subst q. rewrite d_set_eq by lia. exact Hnext.
        + rewrite d_set_neq by exact E2. apply Ho, Hq.
    Qed.

    Lemma uniq_ex_set : forall cs i c x, length cs = n -> i < n -> uniq_ex i cs ->
      (cdist c <> 0 -> forall q, q < n -> q <> i -> q <> x -> dist_at cs q <> 0 -> key_at cs q <> ckey c) ->
      uniq_ex x (set_cell cs i c).
    Proof.
      intros cs i c x Hl Hi Hu Hc a b Ha Hb Hax Hbx.
      destruct (Nat.eq_dec i a) as [Ea|Ea]; destruct (Nat.eq_dec i b) as [Eb|Eb]; try congruence.
      - subst a. rewrite d_set_eq, key_set_eq, d_set_neq, key_set_neq by (assumption || lia).
        intros Hda Hdb Hk. destruct (Hc Hda b); auto.
      - subst b. rewrite d_set_eq, key_set_eq, d_set_neq, key_set_neq by (assumption || lia).
        intros Hda Hdb Hk. destruct (Hc Hdb a); auto.
      - rewrite !d_set_neq, !key_set_neq by assumption. apply Hu; auto.
    Qed.

    Lemma uniq_ok_ex : forall cs x, uniq_ok cs -> uniq_ex x cs.
    Proof. intros cs x Hu a b Ha Hb _ _. apply Hu; auto. Qed.

    (* no index is excluded when the excluded one lies outside the table *)
    Lemma uniq_ex_ok : forall cs, uniq_ex n cs -> uniq_ok cs.
    Proof. intros cs Hu a b Ha Hb. apply Hu; lia. Qed.

    Lemma HasKV_split : forall cs x k v, x < length cs ->
      (HasKV cs k v <-> HasKVex x cs k v \/ (dist_at cs x <> 0 /\ k = key_at cs x /\ v = val_at cs x)).
    Proof.
      intros cs x k v Hx. split.
      - intros [q (Hq & Hdq & Hk & Hv)]. destruct (Nat.eq_dec q x) as [E|E].
        + subst q. right. auto.
        + left. exists q. auto.
      - intros [[q (Hq & _ & H)] | (Hd & Hk & Hv)]; [exists q|exists x]; auto.
    Qed.

    Lemma HasKVex_set : forall cs x c k v, HasKVex x (set_cell cs x c) k v <-> HasKVex x cs k v.
    Proof.
      intros cs x c k v. unfold HasKVex. rewrite length_set_cell.
      split; intros [q (Hq & Hne & H)]; exists q; revert H;
        rewrite d_set_neq, key_set_neq, val_set_neq by auto; auto.
    Qed.

    Lemma HasKV_set : forall cs x c k v, x < length cs ->
      (HasKV (set_cell cs x c) k v <-> HasKVex x cs k v \/ (cdist c <> 0 /\ k = ckey c /\ v = cval c)).
    Proof.
      intros cs x c k v Hx. rewrite (HasKV_split (set_cell cs x c) x) by (rewrite length_set_cell; exact Hx).
      rewrite HasKVex_set, d_set_eq, key_set_eq, val_set_eq by exact Hx. reflexivity.
    Qed.

    Lemma HasKVex_init : forall cs p, WF cs -> p < n -> dist_at cs p <> 0 ->
      forall k v, HasKVex p cs k v <-> (HasKV cs k v /\ k <> key_at cs p).
    Proof.
      intros cs p Hwf Hp Hdp k v. pose proof (wf_len cs Hwf) as Hl. split.
      - intros [q [Hq [Hne [Hdq [Hk Hv]]]]]. split; [exists q; auto|].
        intro E. apply Hne. apply (wf_uniq cs Hwf); auto; try lia; congruence.
      - intros [[q [Hq [Hdq [Hk Hv]]]] Hne]. exists q. repeat split; auto. congruence.
    Qed.

    Fixpoint probe (fuel : nat) (cs : list cell) (i : nat) (k : Z) : option (option nat) :=
      match fuel with
      | O => None
      | S f =>
          let c := get_cell cs i in
          if cdist c =? 0 then Some None
          else if Z.eqb (ckey c) k then Some (Some i)
          else probe f cs (next n i) k
      end.

    (* from a cell i so close to p that an empty cell in between would contradict dist_at cs p *)
    Lemma probe_found : forall cs k p, ord_ok cs -> uniq_ok cs ->
      p < n -> dist_at cs p <> 0 -> key_at cs p = k ->
      forall fuel i, i < n -> cyc_dist n i p < fuel -> cyc_dist n i p < dist_at cs p ->
      probe fuel cs i k = Some (Some p).
    Proof.
      intros cs k p Ho Hu Hp Hdp Hk.
      induction fuel as [|f IH]; intros i Hi Hf Hlt; [lia|]. cbn [probe].
      fold (dist_at cs i); fold (key_at cs i).
      destruct (Nat.eqb_spec (dist_at cs i) 0) as [E|E].
      - pose proof (dist_le_cd cs i p Ho Hi E Hp). lia.
      - destruct (Z.eqb_spec (key_at cs i) k) as [Ek|Ek].
        + rewrite (Hu i p); auto. congruence.
        + assert (Hne : i <> p) by congruence.
          pose proof (cd_next_l n i p Hi Hp Hne). apply IH; [apply next_lt|..]; lia.
    Qed.

    Lemma probe_term : forall cs e k, e < n -> dist_at cs e = 0 ->
      forall fuel i, i < n -> cyc_dist n i e < fuel ->
      exists r, probe fuel cs i k = Some r /\
        (forall p, r = Some p -> p < n /\ dist_at cs p <> 0 /\ key_at cs p = k).
    Proof.
      intros cs e k He Hde. induction fuel as [|f IH]; intros i Hi Hf; [lia|]. cbn [probe].
      fold (dist_at cs i); fold (key_at cs i).
      destruct (Nat.eqb_spec (dist_at cs i) 0) as [E|E].
      - eexists; split; [reflexivity|]. intros p Hp; discriminate.
      - destruct (Z.eqb_spec (key_at cs i) k) as [Ek|Ek].
        + eexists; split; [reflexivity|]. intros p Hp. inversion Hp; subst p. auto.
        + assert (Hne : i <> e) by congruence.
          pose proof (cd_next_l n i e Hi He Hne). apply IH; [apply next_lt|]; lia.
    Qed.

    Lemma probe_cases : forall cs k fuel, WF cs -> count cs < n -> n <= fuel ->
      (exists p, probe fuel cs (home n k) k = Some (Some p) /\ p < n /\ dist_at cs p <> 0 /\ key_at cs p = k)
      \/ (probe fuel cs (home n k) k = Some None /\ forall v, ~ HasKV cs k v).
    Proof.
      intros cs k fuel [Hl Hdi Ho Hu] Hc Hf.
      destruct (exists_empty cs) as [e [He Hde]]; [lia|]. rewrite Hl in He.
      assert (Hh : home n k < n) by (apply home_lt; exact Hn).
      assert (Hcd : forall q, cyc_dist n (home n k) q < fuel) by (intros q; pose proof (cd_lt n (home n k) q Hn); lia).
      destruct (probe_term cs e k He Hde fuel (home n k) Hh (Hcd e)) as [[p|] [Hr Hp]].
      - left. exists p. split; [exact Hr|]. apply Hp. reflexivity.
      - right. split; [exact Hr|]. intros v [q (Hq & Hdq & Hk & _)]. rewrite Hl in Hq.
        rewrite (probe_found cs k q Ho Hu Hq Hdq Hk fuel (home n k) Hh (Hcd q)) in Hr; [discriminate|].
        rewrite (Hdi q Hq Hdq), Hk. lia.
    Qed.

    Lemma place_ok : forall cs i p,
      WF cs -> i < n -> cdist p = S (cyc_dist n (home n (ckey p)) i) -> dist_at cs i < cdist p ->
      (forall q, q < n -> next n q = i -> cdist p <= S (dist_at cs q)) ->
      (forall v, ~ HasKV cs (ckey p) v) ->
      WF (set_cell cs i p).
    Proof.
      intros cs i p [Hl Hdi Ho Hu] Hi Ep Hlt Hprev Hkeys. split.
      - rewrite length_set_cell. exact Hl.
      - apply dist_ok_set; auto.
      - apply ord_ok_set; auto. pose proof (Ho i Hi). lia.
      - apply uniq_ex_ok, uniq_ex_set; auto using uniq_ok_ex.
        intros _ q Hq _ _ Hdq Hk. apply (Hkeys (val_at cs q)). exists q. rewrite Hl. auto.
    Qed.

    Lemma place_count : forall cs i p, i < length cs -> cdist p <> 0 ->
      count (set_cell cs i p) = (if dist_at cs i =? 0 then S (count cs) else count cs).
    Proof.
      intros cs i p Hi Hp. pose proof (count_set_cell cs i p Hi) as Hc.
      destruct (dist_at cs i =? 0), (Nat.eqb_spec (cdist p) 0); lia.
    Qed.

    (* The carried cell p would sit on i at the distance it records; e is an empty cell, which
       bounds every distance below n (so no distance wraps around) and which the loop reaches
       before its fuel runs out; a displaced occupant is carried on. *)
    Lemma insert_loop_ok : forall e, e < n -> forall fuel cs i p,
      WF cs -> dist_at cs e = 0 -> i < n -> cyc_dist n i e < fuel ->
      cdist p = S (cyc_dist n (home n (ckey p)) i) ->
      (forall q, q < n -> next n q = i -> cdist p <= S (dist_at cs q)) ->
      (forall v, ~ HasKV cs (ckey p) v) ->
      exists cs', insert_loop vzero fuel n cs i p = Some cs' /\ WF cs' /\
        count cs' = S (count cs) /\
        forall k v, HasKV cs' k v <-> (HasKV cs k v \/ (k = ckey p /\ v = cval p)).
    Proof.
      intros e He.
      induction fuel as [|f IH]; intros cs i p Hwf Hde Hi Hf Ep Hprev Hkeys; [lia|].
      cbn [insert_loop]. pose proof (wf_len cs Hwf) as Hl.
      assert (Hil : i < length cs) by lia.
      assert (Hstep : i <> e -> cyc_dist n i e = S (cyc_dist n (next n i) e)) by (apply cd_next_l; auto).
      assert (Hni : next n i < n) by (apply next_lt; exact Hn).
      assert (Hh : forall k, home n k < n) by (intros k; apply home_lt; exact Hn).
      pose proof (dist_le_cd cs e i (wf_ord cs Hwf) He Hde Hi) as Hle.
      pose proof (cd_lt n e i Hn) as Hlt.
      assert (Hpi : forall q, q < n -> next n q = next n i -> q = i) by (intros q Hq; apply next_inj; auto).
      fold (dist_at cs i).
      destruct (Nat.ltb_spec (dist_at cs i) (cdist p)) as [Hlt'|Hge].
      - assert (Hwf1 : WF (set_cell cs i p)) by (apply place_ok; auto).
        assert (Hp0 : cdist p <> 0) by lia.
        pose proof (place_count cs i p Hil Hp0) as Hc1.
        pose proof (fun k v => HasKV_set cs i p k v Hil) as Hkv1.
        destruct (Nat.eqb_spec (dist_at cs i) 0) as [E0|E0].
        + exists (set_cell cs i p). split; [reflexivity|]. split; [exact Hwf1|]. split; [exact Hc1|].
          (* tauto on a cleared context, here and below: it examines every hypothesis of this long proof otherwise *)
          intros k v. rewrite Hkv1, (HasKV_split cs i k v Hil). clear - E0 Hp0. tauto.
        + (* swap and carry the old occupant *)
          assert (Hne : i <> e) by congruence.
          pose proof (wf_dist cs Hwf i Hi E0) as Hdi.
          destruct (IH (set_cell cs i p) (next n i) (mkCell (S (dist_at cs i)) (key_at cs i) (val_at cs i)))
            as [cs' [Hrun [Hwf' [Hcnt Hkv]]]]; cbn [cdist ckey]; auto; try lia.
          * rewrite d_set_neq by exact Hne. exact Hde.
          * destruct (cd_next_r n (home n (key_at cs i)) i) as [|[]]; auto; lia.
          * intros q Hq Hnq. rewrite (Hpi q Hq Hnq), d_set_eq by exact Hil. lia.
          * intros v. rewrite Hkv1, HasKVex_init by auto. intros [[_ []]|(_ & Hk & _)]; [reflexivity|].
            apply (Hkeys (val_at cs i)). exists i. auto.
          * exists cs'. split; [exact Hrun|]. split; [exact Hwf'|]. split; [lia|].
            intros k v. rewrite Hkv, Hkv1, (HasKV_split cs i k v Hil). cbn [ckey cval]. clear - E0 Hp0. tauto.
      - (* keep probing with the same carried pair *)
        assert (Hne : i <> e) by (intros ->; lia).
        destruct (IH cs (next n i) (mkCell (S (cdist p)) (ckey p) (cval p)))
          as [cs' [Hrun [Hwf' [Hcnt Hkv]]]]; cbn [cdist ckey]; auto; try lia.
        + destruct (cd_next_r n (home n (ckey p)) i) as [|[]]; auto; lia.
        + intros q Hq Hnq. rewrite (Hpi q Hq Hnq). lia.
        + exists cs'. auto.
    Qed.

    Lemma insert_ok : forall cs k v, WF cs -> count cs < n -> (forall v', ~ HasKV cs k v') ->
      exists cs', insert vzero n cs k v = Some cs' /\ WF cs' /\ count cs' = S (count cs) /\
        forall k' v', HasKV cs' k' v' <-> (HasKV cs k' v' \/ (k' = k /\ v' = v)).
    Proof.
      intros cs k v Hwf Hc Hkeys.
      destruct (exists_empty cs) as [e [He Hde]]; [rewrite (wf_len cs Hwf); exact Hc|].
      rewrite (wf_len cs Hwf) in He.
      assert (Hh : home n k < n) by (apply home_lt; exact Hn).
      pose proof (cd_lt n (home n k) e Hn) as Hcd.
      apply (insert_loop_ok e He (2 * n) cs (home n k) (mkCell 1 k v)); cbn [cdist ckey]; auto; try lia.
      destruct (cd_cases n (home n k) (home n k) Hh Hh); lia.
    Qed.

    Lemma reinsert_ok : forall old cs, WF cs ->
      NoDup (map ckey (filter occ old)) ->
      (forall k v, HasKV cs k v -> ~ In k (map ckey (filter occ old))) ->
      count cs + length (filter occ old) < n ->
      exists cs', reinsert vzero n old cs = Some cs' /\ WF cs' /\
        count cs' = count cs + length (filter occ old) /\
        forall k v, HasKV cs' k v <->
          (HasKV cs k v \/ Exists (fun c => k = ckey c /\ v = cval c) (filter occ old)).
    Proof.
      induction old as [|c r IH]; intros cs Hwf Hnd Hdisj Hcnt; cbn [reinsert].
      - exists cs. split; [reflexivity|]. split; [exact Hwf|]. split; [cbn; lia|].
        intros k v. cbn [filter]. rewrite Exists_nil. tauto.
      - cbn [filter] in *. replace (cdist c =? 0) with (negb (occ c)) by exact (negb_involutive _).
        destruct (occ c); cbn [negb]; [|exact (IH cs Hwf Hnd Hdisj Hcnt)].
        cbn [map length] in *. apply NoDup_cons_iff in Hnd. destruct Hnd as [Hnin Hnd].
        destruct (insert_ok cs (ckey c) (cval c) Hwf) as [cs1 [Hrun1 [Hwf1 [Hc1 Hkv1]]]]; [lia| |].
        { intros v H. apply (Hdisj _ _ H). left. reflexivity. }
        rewrite Hrun1.
        destruct (IH cs1 Hwf1 Hnd) as [cs' [Hrun [Hwf' [Hc' Hkv]]]]; [|lia|].
        { intros k v H Hin. apply Hkv1 in H. destruct H as [H|[-> _]]; [|exact (Hnin Hin)].
          apply (Hdisj _ _ H). right. exact Hin. }
        exists cs'. split; [exact Hrun|]. split; [exact Hwf'|]. split; [lia|].
        intros k v. rewrite Hkv, Hkv1, Exists_cons. clear. tauto.
    Qed.

    Lemma update_ok : forall cs p v, WF cs -> p < n -> dist_at cs p <> 0 ->
      let cs' := set_cell cs p (mkCell (dist_at cs p) (key_at cs p) v) in
      WF cs' /\ count cs' = count cs /\
      forall k' v', HasKV cs' k' v' <->
        ((HasKV cs k' v' /\ k' <> key_at cs p) \/ (k' = key_at cs p /\ v' = v)).
    Proof.
      intros cs p v Hwf Hp Hdp cs'. destruct (Hwf) as [Hl Hdi Ho Hu].
      assert (Hpl : p < length cs) by lia.
      split; [split|split].
      - unfold cs'. rewrite length_set_cell. exact Hl.
      - apply dist_ok_set; auto. intros _. apply Hdi; auto.
      - apply ord_ok_set; auto; cbn [cdist]; [|apply Ho, Hp]. intros q Hq E. rewrite <- E. apply Ho, Hq.
      - apply uniq_ex_ok, uniq_ex_set; [exact Hl|exact Hp|apply uniq_ok_ex, Hu|].
        cbn [ckey]. intros _ q Hq Hne _ Hdq Hk. apply Hne, Hu; auto.
      - pose proof (count_set_cell cs p (mkCell (dist_at cs p) (key_at cs p) v) Hpl) as Hc. fold cs' in Hc.
        cbn [cdist] in Hc. destruct (Nat.eqb_spec (dist_at cs p) 0); lia.
      - intros k' v'. unfold cs'. rewrite HasKV_set, HasKVex_init by assumption. cbn [cdist ckey cval]. tauto.
    Qed.

    (* Backward shift.  Cell prev is to be overwritten: it still holds a stale
       occupant, whose key may occur once more. *)
    Record SH (prev : nat) (cs : list cell) : Prop := mkSH {
      sh_len : length cs = n;
      sh_dist : dist_ok cs;
      sh_ord : ord_ok cs;
      sh_uniq : uniq_ex prev cs;
      sh_lt : prev < n;
      sh_occ : dist_at cs prev <> 0 }.

    Lemma SH_init : forall cs p, WF cs -> p < n -> dist_at cs p <> 0 -> SH p cs.
    Proof. intros cs p [Hl Hdi Ho Hu] Hp Hdp. split; auto using uniq_ok_ex. Qed.

    Lemma shift_step : forall cs prev i, SH prev cs -> i = next n prev -> 2 <= dist_at cs i ->
      let cs' := set_cell cs prev (mkCell (dist_at cs i - 1) (key_at cs i) (val_at cs i)) in
      SH i cs' /\ count cs' = count cs /\ (forall q, q <> prev -> dist_at cs' q = dist_at cs q) /\
      forall k v, HasKVex i cs' k v <-> HasKVex prev cs k v.
    Proof.
      intros cs prev i [Hl Hdi Ho Hu Hp Hdp] Ei Hd2 cs'.
      assert (Hpl : prev < length cs) by lia.
      assert (Hi : i < n) by (rewrite Ei; apply next_lt; exact Hn).
      assert (Hne : prev <> i) by (rewrite Ei; intro E; symmetry in E; revert E; apply next_neq; auto).
      assert (Hdq : forall q, q <> prev -> dist_at cs' q = dist_at cs q).
      { intros q Hq. unfold cs'. apply d_set_neq. congruence. }
      split; [|split; [|split]].
      - split; auto.
        + unfold cs'. rewrite length_set_cell. exact Hl.
        + apply dist_ok_set; auto. cbn [cdist ckey]. intros _.
          pose proof (Hdi i Hi ltac:(lia)) as Hdii.
          set (h := home n (key_at cs i)) in *.
          assert (Hh : h < n) by (apply home_lt; exact Hn).
          destruct (cd_next_r n h prev Hh Hp) as [Hs|[_ Hs]]; rewrite <- Ei in Hs; lia.
        + pose proof (Ho prev Hp) as H2. rewrite <- Ei in H2.
          apply ord_ok_set; auto; cbn [cdist]; [|rewrite <- Ei; lia].
          intros q Hq E. pose proof (Ho q Hq) as H1. rewrite E in H1. lia.
        + apply uniq_ex_set; auto. cbn [ckey]. intros _ q Hq Hqp Hqi Hd Hk.
          apply Hqi, Hu; auto. lia.
        + rewrite Hdq by congruence. lia.
      - pose proof (count_set_cell cs prev (mkCell (dist_at cs i - 1) (key_at cs i) (val_at cs i)) Hpl) as Hc.
        fold cs' in Hc. cbn [cdist] in Hc.
        destruct (Nat.eqb_spec (dist_at cs prev) 0), (Nat.eqb_spec (dist_at cs i - 1) 0); lia.
      - exact Hdq.
      - (* the occupant of i now also sits in prev *)
        intros k v. unfold HasKVex, cs' at 1. rewrite length_set_cell. split.
        + intros [q (Hq & Hqi & Hdq0 & Hk & Hv)]. unfold cs' in *.
          destruct (Nat.eq_dec prev q) as [E|E].
          * subst q. rewrite key_set_eq in Hk by exact Hpl. rewrite val_set_eq in Hv by exact Hpl.
            exists i. repeat split; auto; lia.
          * rewrite d_set_neq in Hdq0 by exact E. rewrite key_set_neq in Hk by exact E.
            rewrite val_set_neq in Hv by exact E. exists q. auto.
        + intros [q (Hq & Hqp & Hdq0 & Hk & Hv)]. unfold cs'.
          destruct (Nat.eq_dec q i) as [E|E].
          * subst q. exists prev. rewrite d_set_eq, key_set_eq, val_set_eq by exact Hpl.
            cbn [cdist ckey cval]. repeat split; auto; lia.
          * exists q. rewrite d_set_neq, key_set_neq, val_set_neq by auto. auto.
    Qed.

    Lemma shift_final : forall cs prev i, SH prev cs -> i = next n prev -> dist_at cs i <= 1 ->
      let cs' := set_cell cs prev (mkCell 0 (key_at cs prev) (val_at cs prev)) in
      WF cs' /\ S (count cs') = count cs /\
      forall k v, HasKV cs' k v <-> HasKVex prev cs k v.
    Proof.
      intros cs prev i [Hl Hdi Ho Hu Hp Hdp] Ei Hd1 cs'.
      assert (Hpl : prev < length cs) by lia.
      split; [split|split].
      - unfold cs'. rewrite length_set_cell. exact Hl.
      - apply dist_ok_set; auto. cbn [cdist]. congruence.
      - apply ord_ok_set; auto; cbn [cdist]; [lia|]. rewrite <- Ei. lia.
      - apply uniq_ex_ok, uniq_ex_set; auto.
      - pose proof (count_set_cell cs prev (mkCell 0 (key_at cs prev) (val_at cs prev)) Hpl) as Hc.
        fold cs' in Hc. cbn [cdist Nat.eqb] in Hc. destruct (Nat.eqb_spec (dist_at cs prev) 0); lia.
      - intros k v. unfold cs'. rewrite HasKV_set by exact Hpl. cbn [cdist]. tauto.
    Qed.

    Lemma d_repeat : forall q, dist_at (repeat (empty_cell vzero) n) q = 0.
    Proof. intros q. unfold dist_at, IntMap.get_cell. rewrite nth_repeat. reflexivity. Qed.

    Lemma WF_repeat : WF (repeat (empty_cell vzero) n).
    Proof.
      split.
      - apply repeat_length.
      - intros p _ H. rewrite d_repeat in H. contradiction.
      - intros p _. rewrite !d_repeat. lia.
      - intros p q _ _ H. rewrite d_repeat in H. contradiction.
    Qed.

  End WF.

  Lemma count_repeat : forall n, count (repeat (empty_cell vzero) n) = 0.
  Proof. induction n as [|n IH]; [reflexivity|]. cbn [repeat]. unfold count in *. cbn. exact IH. Qed.

  Lemma HasKV_In : forall (cs : list cell) k v,
    HasKV cs k v <-> Exists (fun c => k = ckey c /\ v = cval c) (filter occ cs).
  Proof.
    intros cs k v. rewrite Exists_exists. split.
    - intros [q (Hq & Hd & Hk & Hv)]. exists (get_cell cs q). rewrite filter_In, occ_true.
      split; [split; [apply nth_In; exact Hq | exact Hd] | auto].
    - intros [c (Hin & Hk & Hv)]. apply filter_In in Hin. destruct Hin as [Hin Ho].
      destruct (In_nth cs c (empty_cell vzero) Hin) as [q [Hq Hnth]].
      exists q. unfold dist_at, key_at, val_at, IntMap.get_cell. rewrite Hnth. apply occ_true in Ho. auto.
  Qed.

  Lemma nodup_keys : forall (cs : list cell), uniq_ok (length cs) cs -> NoDup (map ckey (filter occ cs)).
  Proof.
    induction cs as [|x r IH]; intros H; [constructor|].
    assert (Hr : NoDup (map ckey (filter occ r))).
    { apply IH. intros p q Hp Hq Hdp Hdq Hk.
      assert (S p = S q); [|lia].
      apply H; cbn [length]; try lia; assumption. }
    cbn [filter]. destruct (occ x) eqn:Ox; [|exact Hr].
    cbn [map]. constructor; [|exact Hr].
    intro Hin. apply in_map_iff in Hin. destruct Hin as [c [Hk Hc]].
    destruct (proj2 (HasKV_In r (ckey x) (cval c))) as [q (Hq & Hdq & Hkq & _)].
    { apply Exists_exists. exists c. auto. }
    assert (0 = S q); [|lia].
    apply H; cbn [length]; try lia; [apply occ_true; exact Ox | exact Hdq | symmetry; exact Hkq].
  Qed.

End Table.
