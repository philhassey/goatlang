(* C14 -- printed values look as Go prints them, and printing always terminates.
   Model: Model/Print.v (three heap-non-recursive layers).  Spec: GoSpec/GoFmt.v.
   repr / repr_top say which Go value a goatlang value stands for in a heap, wf_heap which
   heaps (cyclic ones included) the printer is defined on.  nested_correct: represented values
   of depth <= 2 print as Go prints them; depth_bound: the printer reads at most two references
   deep; total_on_wf / println_total: it is defined on every well-formed heap.  At the end the
   two concrete heaps of Props/C14: depth 3 (deep_heap) and a slice that contains itself. *)
From Coq Require Import ZArith List Bool Floats Lia String.
From GV Require Import GoSpec.GoPrim GoSpec.GoFmt Gen.ValueOps_gen Model.Print.
Import ListNotations.
Open Scope Z_scope.

(* representation of a Go value in a goatlang heap.  A numeric-map key is stored without
   payload (PNone), which RNilSlice and RNilMap would read as a nil slice or nil map as well;
   is_scalar in RNumMap1 excludes these two readings: they are not comparable in Go and
   cannot be keys. *)
Definition is_scalar (g : gval) : bool :=
  match g with GBool _ | GInt _ | GFloat _ | GStr _ => true | _ => false end.

Inductive repr (h : heap) : value -> gval -> Prop :=
| RBool : forall t (b : bool), Type_base t = TypeBool ->
    repr h (mkValue t (Zn (if b then 1 else 0)) PNone) (GBool b)
| RInt : forall t z, is_int_tag (Type_base t) = true -> in_range I64 z = true ->
    repr h (mkValue t (Zn z) PNone) (GInt z)
| RFloat : forall t f, Type_base t = TypeFloat64 ->
    repr h (mkValue t (Fn f) PNone) (GFloat f)
| RStr : forall t n s, Type_base t = TypeString ->
    repr h (mkValue t n (PStr s)) (GStr s)
| RNilSlice : forall t n, Type_base t = TypeSlice -> repr h (mkValue t n PNone) GNilSlice
| RNilMap : forall t n, Type_base t = TypeMap -> repr h (mkValue t n PNone) GNilMap
| RSlice : forall t n a vs gs, Type_base t = TypeSlice -> h a = Some (OSlice vs) ->
    Forall2 (repr h) vs gs -> repr h (mkValue t n (PRef a)) (GSlice gs)
| RStrMap1 : forall t n a k v g, Type_base t = TypeMap -> h a = Some (OStrMap [(k, v)]) ->
    repr h v g -> repr h (mkValue t n (PRef a)) (GMap1 (GStr k) g)
| RNumMap1 : forall t n a kt k v gk g, Type_base t = TypeMap -> h a = Some (ONumMap kt [(k, v)]) ->
    repr h (mkValue kt k PNone) gk -> is_scalar gk = true ->
    repr h v g -> repr h (mkValue t n (PRef a)) (GMap1 gk g)
| RStrMap0 : forall t n a, Type_base t = TypeMap -> h a = Some (OStrMap []) ->
    repr h (mkValue t n (PRef a)) GMap0
| RNumMap0 : forall t n a kt, Type_base t = TypeMap -> h a = Some (ONumMap kt []) ->
    repr h (mkValue t n (PRef a)) GMap0.

Definition repr_field (h : heap) (f : bytes * value) (gf : bytes * gval) : Prop :=
  fst f = fst gf /\ repr h (snd f) (snd gf).

Inductive repr_top (h : heap) : value -> gtop -> Prop :=
| RTVal : forall v g, repr h v g -> repr_top h v (GVal g)
| RTStruct : forall t n a fs gfs, Type_base t = TypeStruct -> h a = Some (OStruct fs) ->
    Forall2 (repr_field h) fs gfs -> repr_top h (mkValue t n (PRef a)) (GStructRef gfs).

Definition scalar_tag (t : Z) : bool :=
  (t =? TypeNil) || (t =? TypeBool) || is_int_tag t || (t =? TypeFloat64).
Definition scalar_ok (v : value) : Prop :=
  (scalar_tag (Type_base (vt v)) = true /\ vval v = PNone) \/
  (Type_base (vt v) = TypeString /\ exists s, vval v = PStr s).
Definition wf_value (h : heap) (v : value) : Prop :=
  scalar_ok v \/
  (Type_isSafeStr (vt v) = false /\ (vval v = PNone \/ exists a o, vval v = PRef a /\ h a = Some o)).
Definition wf_obj (h : heap) (o : object) : Prop :=
  Forall (wf_value h) (obj_values o) /\
  match o with ONumMap kt _ => scalar_tag (Type_base kt) = true | _ => True end.
Definition wf_heap (h : heap) : Prop := forall a o, h a = Some o -> wf_obj h o.

(* the type tag of an integer kind, for the statement of Props/C14.c14_scalars (the same
   function as C04_ops.tag_of, which this file does not load) *)
Definition tag_of (t : ity) : Z :=
  match t with I8 => TypeInt8 | U8 => TypeUint8 | I32 => TypeInt32 | U32 => TypeUint32 | _ => untypedInt end.

Lemma in_range_I64 : forall t z, bits t <= 32 -> in_range t z = true -> in_range I64 z = true.
Proof.
  intros t z Hb H. unfold in_range in *. apply andb_prop in H. destruct H as [A B].
  apply Z.leb_le in A, B. apply andb_true_intro. split; apply Z.leb_le.
  - assert (lo I64 <= lo t) by (destruct t; vm_compute in Hb |- *; congruence). lia.
  - assert (hi t <= hi I64) by (destruct t; vm_compute in Hb |- *; congruence). lia.
Qed.

Section Proofs.
  Variable ff : float -> bytes.

  Lemma value_string_noref : forall h h' f f' v, (forall a, vval v <> PRef a) ->
    value_string ff h f v = value_string ff h' f' v.
  Proof.
    intros h h' f f' v N. unfold value_string. destruct (vval v) as [| |a]; try reflexivity.
    destruct (N a eq_refl).
  Qed.

  Lemma safe_str_noref : forall h v, (forall a, vval v <> PRef a) ->
    safe_str ff h v = value_string ff h (fun _ => Unmodelled) v.
  Proof. intros h v N. unfold safe_str. destruct (vval v) as [| |a]; try reflexivity. destruct (N a eq_refl). Qed.

  Lemma safe_str_leaf_noref : forall h v, (forall a, vval v <> PRef a) ->
    safe_str_leaf ff h v = value_string ff h (fun _ => Unmodelled) v.
  Proof. intros h v N. unfold safe_str_leaf. destruct (vval v) as [| |a]; try reflexivity. destruct (N a eq_refl). Qed.

  Lemma int_tag_cases : forall t, is_int_tag t = true ->
    t = TypeInt32 \/ t = TypeUint32 \/ t = TypeInt8 \/ t = TypeUint8 \/ t = untypedInt.
  Proof. unfold is_int_tag. intros t Ht. repeat (apply orb_prop in Ht; destruct Ht as [Ht|Ht]); lia. Qed.

  Lemma value_string_int : forall h f t z p, is_int_tag (Type_base t) = true -> in_range I64 z = true ->
    value_string ff h f (mkValue t (Zn z) p) = Ok (print_Z z).
  Proof.
    intros h f t z p Ht Hz. unfold value_string. cbn [vt vnum vval cvt cvt_z cvt64]. rewrite Hz.
    destruct (int_tag_cases _ Ht) as [E|[E|[E|[E|E]]]]; rewrite E; reflexivity.
  Qed.

  Lemma unsafe_tag : forall t, Type_isSafeStr t = false <->
    Type_base t = TypeSlice \/ Type_base t = TypeMap \/ Type_base t = TypeStruct.
  Proof.
    unfold Type_isSafeStr. intros t. split.
    - destruct (Type_base t =? TypeSlice) eqn:A; [lia|].
      destruct (Type_base t =? TypeMap) eqn:B; [lia|].
      destruct (Type_base t =? TypeStruct) eqn:C; [lia|]. discriminate.
    - intros [E|[E|E]]; rewrite E; reflexivity.
  Qed.

  Lemma value_string_ref : forall h f v a, Type_isSafeStr (vt v) = false -> vval v = PRef a ->
    value_string ff h f v =
    match h a with Some o => match f o with Ok s => Ok s | _ => Unmodelled end | None => Unmodelled end.
  Proof.
    intros h f v a T P. unfold value_string. rewrite P.
    destruct (proj1 (unsafe_tag _) T) as [E|[E|E]]; rewrite E; reflexivity.
  Qed.

  Lemma value_string_nil : forall h f v, Type_isSafeStr (vt v) = false -> vval v = PNone ->
    exists s, value_string ff h f v = Ok s.
  Proof.
    intros h f v T P. unfold value_string. rewrite P.
    destruct (proj1 (unsafe_tag _) T) as [E|[E|E]]; rewrite E; cbn; eauto.
  Qed.

  Lemma value_string_scalar : forall h f v, scalar_ok v -> exists s, value_string ff h f v = Ok s.
  Proof.
    intros h f v [[T P]|[T [s P]]]; unfold value_string.
    - unfold scalar_tag in T. rewrite P.
      destruct (Type_base (vt v) =? TypeNil); [eauto|].
      destruct (Type_base (vt v) =? TypeBool); [eauto|].
      destruct (is_int_tag (Type_base (vt v))); [eauto|].
      destruct (Type_base (vt v) =? TypeFloat64); [eauto|]. discriminate T.
    - rewrite T, P. cbn. eauto.
  Qed.

  Lemma scalar_safe : forall v, scalar_ok v -> Type_isSafeStr (vt v) = true /\ (forall a, vval v <> PRef a).
  Proof.
    intros v [[T P]|[T [s P]]]; (split; [|intros a; rewrite P; discriminate]); unfold Type_isSafeStr.
    - unfold scalar_tag, is_int_tag in T.
      repeat (apply orb_prop in T; destruct T as [T|T]); apply Z.eqb_eq in T; rewrite T; reflexivity.
    - rewrite T. reflexivity.
  Qed.

  (* a represented value without reference is a scalar or a nil container: value_string
     renders it itself, whatever the heap and the object renderer f *)
  Lemma repr_noref : forall h f v g, repr h v g -> (forall a, vval v <> PRef a) ->
    value_string ff h f v = Ok (go_fmt ff g).
  Proof.
    intros h f v g R N.
    destruct R as [? b H|? ? H|? ? H|? ? ? H|? ? H|? ? H|? ? a|? ? a|? ? a|? ? a|? ? a]; try destruct (N a eq_refl).
    2: now apply value_string_int.
    all: unfold value_string; cbn [vt vnum vval]; rewrite H; try reflexivity.
    now destruct b.
  Qed.

  Lemma repr_depth0 : forall h v g, repr h v g -> depth g = O -> scalar_ok v.
  Proof.
    intros h v g R D. destruct R; try discriminate D; unfold scalar_ok, scalar_tag; cbn [vt vval].
    - left. now rewrite H.
    - left. now rewrite H, orb_true_r.
    - left. now rewrite H.
    - right. eauto.
  Qed.

  (* [s] is Go's text of an item (text before the element, element) of an object, the element
     being of depth < d *)
  Definition item_fmt (h : heap) (d : nat) '(pre, v) (s : bytes) : Prop :=
    exists p g, pre = Ok p /\ repr h v g /\ (depth g < d)%nat /\ s = (p ++ go_fmt ff g)%list.

  Lemma Forall2_map_max : forall {A B A' B'} (R : A -> B -> Prop) (Q : A' -> B' -> Prop)
      (f : A -> A') (k : B -> B') (dep : B -> nat) d,
    (forall x y, R x y -> (dep y < d)%nat -> Q (f x) (k y)) ->
    forall xs ys, Forall2 R xs ys -> (fold_right (fun y m => Nat.max (dep y) m) O ys < d)%nat ->
    Forall2 Q (map f xs) (map k ys).
  Proof.
    intros A B A' B' R Q f k dep d HQ. induction 1 as [|x y xs ys r _ IH]; cbn [fold_right map]; intros D; constructor.
    - apply HQ; [exact r|lia].
    - apply IH. lia.
  Qed.

  (* a represented reference points at an object whose items are represented one by one, and
     Go prints the items between the object's brackets *)
  Lemma repr_ref : forall h v a g d, repr_top h v g -> vval v = PRef a -> (depth_top g <= d)%nat ->
    Type_isSafeStr (vt v) = false /\ exists o ss, h a = Some o /\
      Forall2 (item_fmt h d) (obj_items ff h o) ss /\
      go_fmt_top ff g = (obj_open o ++ join_sp ss ++ obj_close o)%list.
  Proof.
    intros h v a g d R P D.
    destruct R as [v g R|? ? ? fs gfs ? ? F].
    1: destruct R as [| | | | | |? ? ? vs gs ? ? F|? ? ? k v' g1 ? ? R1|? ? ? kt k v' gk g1 ? ? Rk _ R1| |].
    all: try discriminate P; injection P as ->; cbn [vt depth_top depth] in D |- *.
    all: split; [apply unsafe_tag; auto|]; eexists _, _; split; [eassumption|]; cbn [obj_items].
    - split; [|reflexivity]. refine (Forall2_map_max _ _ _ (go_fmt ff) depth d _ vs gs F D).
      intros x y Rxy Dy. exists [], y. auto.
    - split; [repeat constructor|].
      + exists (k ++ bs ":")%list, g1. repeat split; [exact R1|lia].
      + cbn [join_sp obj_open obj_close go_fmt_top go_fmt]. now rewrite <- !app_assoc.
    - split; [repeat constructor|].
      + exists (go_fmt ff gk ++ bs ":")%list, g1. repeat split; [|exact R1|lia].
        unfold num_key. rewrite (repr_noref h _ _ gk Rk); [reflexivity|discriminate].
      + cbn [join_sp obj_open obj_close go_fmt_top go_fmt]. now rewrite <- !app_assoc.
    - split; [constructor|reflexivity].
    - split; [constructor|reflexivity].
    - split; [|reflexivity].
      refine (Forall2_map_max _ _ _ (go_fmt_field ff) (fun p => depth (snd p)) d _ fs gfs F D).
      intros x y [N Rxy] Dy. exists (fst y ++ bs ":")%list, (snd y). rewrite N.
      unfold go_fmt_field. rewrite <- app_assoc. auto.
  Qed.

  (* layer 3 renders the items of depth 0, layer 2 those of depth <= 1 *)

  Lemma safe_items_fmt : forall h items ss, Forall2 (item_fmt h 1) items ss ->
    safe_items ff h items = Ok (Some ss).
  Proof.
    induction 1 as [|[pre v] s items ss (p & g & Hp & R & D & ->) _ IH]; [reflexivity|].
    destruct (scalar_safe v (repr_depth0 h v g R ltac:(lia))) as [T N].
    cbn [safe_items]. rewrite T, Hp, (safe_str_leaf_noref h v N), (repr_noref h _ v g R N), IH. reflexivity.
  Qed.

  Lemma safe_str_depth1 : forall h v g, repr h v g -> (depth g <= 1)%nat ->
    safe_str ff h v = Ok (go_fmt ff g).
  Proof.
    intros h v g R D. destruct (vval v) as [| |a] eqn:P.
    3: { destruct (repr_ref h v a (GVal g) 1 (RTVal h v g R) P D) as (_ & o & ss & Ho & I & E).
         unfold safe_str. rewrite P, Ho. unfold obj_safe_str. rewrite (safe_items_fmt h _ ss I).
         cbn [bind]. f_equal. symmetry. exact E. }
    all: rewrite safe_str_noref; [apply (repr_noref h _ v g R)| ]; rewrite P; discriminate.
  Qed.

  Lemma str_items_fmt : forall h items ss, Forall2 (item_fmt h 2) items ss ->
    str_items ff h items = Ok ss.
  Proof.
    induction 1 as [|[pre v] s items ss (p & g & Hp & R & D & ->) _ IH]; [reflexivity|].
    cbn [str_items]. rewrite Hp, (safe_str_depth1 h v g R ltac:(lia)), IH. reflexivity.
  Qed.

  Theorem nested_correct : forall h v g, repr_top h v g -> (depth_top g <= 2)%nat ->
    string_top ff h v = Ok (go_fmt_top ff g).
  Proof.
    intros h v g R D. unfold string_top. destruct (vval v) as [| |a] eqn:P.
    3: { destruct (repr_ref h v a g 2 R P D) as (T & o & ss & Ho & I & E).
         rewrite (value_string_ref h _ v a T P), Ho. unfold obj_string. rewrite (str_items_fmt h _ ss I).
         cbn [bind]. now rewrite E. }
    all: destruct R as [v g R|]; [|discriminate P]; apply (repr_noref h _ v g R); rewrite P; discriminate.
  Qed.

  Lemma sprint_all_correct : forall h (P : value -> gtop -> Prop),
    (forall v g, P v g -> string_top ff h v = Ok (go_fmt_top ff g)) ->
    forall vs gs, Forall2 P vs gs -> sprint_all ff h vs = Ok (map (go_fmt_top ff) gs).
  Proof.
    intros h P HP. induction 1 as [|v g vs gs E _ IH]; [reflexivity|].
    cbn [sprint_all map]. unfold sprint. rewrite (HP v g E). cbn [bind]. rewrite IH. reflexivity.
  Qed.

  Lemma safe_str_leaf_heap : forall h h' v, safe_str_leaf ff h v = safe_str_leaf ff h' v.
  Proof.
    intros h h' v. unfold safe_str_leaf. destruct (vval v) eqn:P; try reflexivity;
      apply value_string_noref; rewrite P; discriminate.
  Qed.

  Lemma obj_items_heap : forall h h' o, obj_items ff h o = obj_items ff h' o.
  Proof. intros h h' o. destruct o; reflexivity. Qed.

  Lemma safe_items_heap : forall h h' items, safe_items ff h items = safe_items ff h' items.
  Proof.
    induction items as [|[pre v] r IH]; [reflexivity|]. cbn [safe_items].
    now rewrite IH, (safe_str_leaf_heap h h').
  Qed.

  Lemma obj_safe_str_heap : forall h h' o, obj_safe_str ff h o = obj_safe_str ff h' o.
  Proof. intros. unfold obj_safe_str. now rewrite (obj_items_heap h h'), (safe_items_heap h h'). Qed.

  Lemma safe_str_heap : forall h h' v, (forall a, In a (vref v) -> h a = h' a) ->
    safe_str ff h v = safe_str ff h' v.
  Proof.
    intros h h' v A. unfold safe_str, vref in *. destruct (vval v) as [| |a] eqn:P.
    3: { rewrite <- (A a (or_introl eq_refl)). destruct (h a); [apply obj_safe_str_heap|reflexivity]. }
    all: apply value_string_noref; rewrite P; discriminate.
  Qed.

  Lemma str_items_heap : forall h h' items,
    (forall a, In a (flat_map vref (map snd items)) -> h a = h' a) ->
    str_items ff h items = str_items ff h' items.
  Proof.
    induction items as [|[pre v] r IH]; intros A; [reflexivity|]. cbn [str_items].
    cbn [map flat_map snd] in A.
    rewrite (safe_str_heap h h' v), IH; [reflexivity| |]; intros a Ha; apply A, in_or_app; auto.
  Qed.

  Lemma obj_items_values : forall h o, map snd (obj_items ff h o) = obj_values o.
  Proof. intros h o. destruct o; cbn [obj_items obj_values]; rewrite map_map; cbn [snd]; auto using map_id. Qed.

  Theorem depth_bound : forall h h' v,
    (forall a, In a (reach1 v ++ reach2 h v) -> h a = h' a) ->
    string_top ff h v = string_top ff h' v.
  Proof.
    intros h h' v A. unfold string_top, value_string, reach1, reach2, vref in *.
    destruct (vval v) as [|s|a] eqn:P; try reflexivity.
    cbn [flat_map app] in A.
    rewrite <- (A a (or_introl eq_refl)).
    destruct (h a) as [o|] eqn:Ho; [|reflexivity].
    replace (obj_string ff h' o) with (obj_string ff h o); [reflexivity|].
    unfold obj_string. rewrite <- (obj_items_heap h h').
    rewrite (str_items_heap h h'); [reflexivity|].
    intros b Hb. apply A. right. rewrite app_nil_r. now rewrite obj_items_values in Hb.
  Qed.

  Definition items_ok (h : heap) (items : list (res bytes * value)) : Prop :=
    Forall (fun it => (exists p, fst it = Ok p) /\ wf_value h (snd it)) items.

  Lemma obj_items_ok : forall h o, wf_obj h o -> items_ok h (obj_items ff h o).
  Proof.
    intros h o [F K]. unfold items_ok.
    destruct o; cbn [obj_items obj_values] in *; rewrite Forall_map in *;
      (eapply Forall_impl; [|exact F]); cbn; intros e W; split; eauto.
    unfold num_key.
    destruct (value_string_scalar h (fun _ => Unmodelled) (mkValue keyType (fst e) PNone)) as [s ->]; [left; auto|].
    cbn. eauto.
  Qed.

  Lemma safe_items_ok : forall h items, items_ok h items -> exists r, safe_items ff h items = Ok r.
  Proof.
    induction 1 as [|[pre v] r [[p Hp] W] _ [x IH]]; [cbn; eauto|].
    cbn [safe_items fst snd] in *. destruct (Type_isSafeStr (vt v)) eqn:T; [|eauto].
    destruct W as [S|[T' _]]; [|congruence].
    destruct (value_string_scalar h (fun _ => Unmodelled) v S) as [s E].
    rewrite Hp, (safe_str_leaf_noref h v (proj2 (scalar_safe v S))), E, IH. cbn. eauto.
  Qed.

  Lemma safe_str_ok : forall h v, wf_heap h -> wf_value h v -> exists s, safe_str ff h v = Ok s.
  Proof.
    intros h v WH [S|[T [P|(a & o & P & Ho)]]].
    - rewrite safe_str_noref by apply (scalar_safe v S). now apply value_string_scalar.
    - rewrite safe_str_noref by (rewrite P; discriminate). now apply value_string_nil.
    - unfold safe_str. rewrite P, Ho. unfold obj_safe_str.
      destruct (safe_items_ok h _ (obj_items_ok h o (WH a o Ho))) as [r ->]. cbn. eauto.
  Qed.

  Lemma str_items_ok : forall h items, wf_heap h -> items_ok h items -> exists r, str_items ff h items = Ok r.
  Proof.
    intros h items WH. induction 1 as [|[pre v] r [[p Hp] W] _ [x IH]]; [cbn; eauto|].
    cbn [str_items fst snd] in *. destruct (safe_str_ok h v WH W) as [s E].
    rewrite Hp, E, IH. cbn. eauto.
  Qed.

  Theorem total_on_wf : forall h v, wf_heap h -> wf_value h v -> exists s, string_top ff h v = Ok s.
  Proof.
    intros h v WH [S|[T [P|(a & o & P & Ho)]]]; unfold string_top.
    - now apply value_string_scalar.
    - now apply value_string_nil.
    - rewrite (value_string_ref h _ v a T P), Ho. unfold obj_string.
      destruct (str_items_ok h _ WH (obj_items_ok h o (WH a o Ho))) as [r ->]. cbn. eauto.
  Qed.

  Lemma sprint_all_ok : forall h vs, Forall (fun v => exists s, string_top ff h v = Ok s) vs ->
    exists l, sprint_all ff h vs = Ok l.
  Proof.
    induction 1 as [|v vs [s E] _ [l IH]]; [cbn; eauto|].
    cbn [sprint_all]. unfold sprint. rewrite E, IH. cbn. eauto.
  Qed.

  Theorem println_total : forall h vs, wf_heap h -> Forall (wf_value h) vs ->
    exists s, fmt_Println ff h vs = Ok s.
  Proof.
    intros h vs WH F.
    destruct (sprint_all_ok h vs (Forall_impl _ (fun v => total_on_wf h v WH) F)) as [l E].
    unfold fmt_Println, va_sprint. rewrite E. cbn. eauto.
  Qed.
End Proofs.

(* the heap of Props/C14.c14_deep_refuted (nesting depth 3 is not rendered as Go renders it):
   [][][]int{{{1}}}, objects 1 = outer, 2 = middle, 3 = inner *)
Definition deep_heap : heap := heap_of
  [(1, OSlice [mkValue 1540224 (Zn 0) (PRef 2)]);      (* elements of type [][]int *)
   (2, OSlice [mkValue 6016 (Zn 0) (PRef 3)]);       (* elements of type []int   *)
   (3, OSlice [mkValue TypeInt32 (Zn 1) PNone])].
Definition deep_value : value := mkValue 394297472 (Zn 0) (PRef 1).
Definition deep_gval : gval := GSlice [GSlice [GSlice [GInt 1]]].

Lemma deep_repr : repr_top deep_heap deep_value (GVal deep_gval).
Proof. unfold deep_value, deep_gval. repeat econstructor. Qed.

(* a slice that contains itself: the rendering is defined and finite *)
Definition cyc_heap : heap := heap_of [(1, OSlice [mkValue 1540224 (Zn 0) (PRef 1)])].
Lemma cyc_wf : wf_heap cyc_heap.
Proof.
  intros a o. unfold cyc_heap, heap_of. destruct (a =? 1); [|discriminate].
  intros E; injection E as <-. split; [|exact I]. constructor; [|constructor].
  right. split; [reflexivity|]. right. eexists _, _. split; reflexivity.
Qed.
