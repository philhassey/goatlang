(* Model/VM.v as the proofs use it: the length and index lemmas of zlen / znth / zset, one unfolding of
   exec, and case analysis of step1 by opcode (call_fn has its normal form in C09_call.v).

   step1 is one if-chain over the opcodes of Gen/Tables_gen.v.  A proof that destructs its tests one
   after the other carries the rest of the chain through every step and is paid for again at Qed.
   [by_opcode] splits on the opcode table instead: the branch of each opcode is computed once
   ([step1_branches], [step1_nth]), and [step1_other] covers the codes outside the table. *)
From Coq Require Import ZArith List String Bool Lia.
From GV Require Import GoSpec.GoPrim Gen.ValueOps_gen Gen.Tables_gen Model.VM.
Import ListNotations.
Open Scope Z_scope.

Lemma zlen_nil {A} : zlen (@nil A) = 0. Proof. reflexivity. Qed.
Lemma zlen_cons {A} (x : A) l : zlen (x :: l) = zlen l + 1.
Proof. unfold zlen. cbn [List.length]. lia. Qed.
Lemma zlen_nonneg {A} (l : list A) : 0 <= zlen l. Proof. unfold zlen. lia. Qed.
Lemma zlen_app {A} (a b : list A) : zlen (a ++ b) = zlen a + zlen b.
Proof. unfold zlen. rewrite app_length. lia. Qed.
Lemma zlen_rev {A} (a : list A) : zlen (rev a) = zlen a.
Proof. unfold zlen. now rewrite rev_length. Qed.
Lemma zlen_map {A B} (f : A -> B) l : zlen (map f l) = zlen l.
Proof. unfold zlen. now rewrite map_length. Qed.
Lemma zlen_repeat {A} (x : A) n : zlen (repeat x n) = Z.of_nat n.
Proof. unfold zlen. now rewrite repeat_length. Qed.
Lemma zlen_firstn {A} n (l : list A) : zlen (firstn n l) = Z.min (Z.of_nat n) (zlen l).
Proof. unfold zlen. rewrite firstn_length. lia. Qed.
Lemma zlen_skipn {A} n (l : list A) : zlen (skipn n l) = Z.max 0 (zlen l - Z.of_nat n).
Proof. unfold zlen. rewrite skipn_length. lia. Qed.

Lemma nset_length {A} (l : list A) n v : List.length (nset l n v) = List.length l.
Proof. revert n; induction l; intros [|n]; cbn; auto. Qed.
Lemma zset_length {A} (l : list A) i v : List.length (zset l i v) = List.length l.
Proof. unfold zset. destruct (i <? 0); [reflexivity|apply nset_length]. Qed.
Lemma zlen_zset {A} (l : list A) i v : zlen (zset l i v) = zlen l.
Proof. unfold zlen. now rewrite zset_length. Qed.

Lemma znth_nth_error {A} (l : list A) p : 0 <= p -> znth l p = nth_error l (Z.to_nat p).
Proof. intros H. unfold znth. destruct (p <? 0) eqn:E; [lia|reflexivity]. Qed.
Lemma znth_Some {A} (l : list A) n x : znth l n = Some x -> 0 <= n < zlen l.
Proof.
  unfold znth, zlen. destruct (n <? 0) eqn:E; [discriminate|]. intro H.
  assert (Z.to_nat n < List.length l)%nat by (apply nth_error_Some; congruence). lia.
Qed.
Lemma znth_lt {A} (l : list A) n : 0 <= n < zlen l -> exists x, znth l n = Some x.
Proof.
  intro H. rewrite znth_nth_error by lia.
  destruct (nth_error l (Z.to_nat n)) eqn:N; [eauto|]. apply nth_error_None in N. unfold zlen in H. lia.
Qed.
Lemma znth_none {A} (l : list A) p : znth l p = None -> p < 0 \/ zlen l <= p.
Proof.
  intros H. unfold znth in H. destruct (p <? 0) eqn:E; [lia|].
  right. apply nth_error_None in H. unfold zlen. lia.
Qed.

Lemma znth_mid : forall {A} (pre sl post : list A) a, 0 <= a < zlen sl ->
  znth (pre ++ sl ++ post) (a + zlen pre) = znth sl a.
Proof.
  intros A pre sl post a H. unfold zlen in *. rewrite !znth_nth_error by lia.
  replace (Z.to_nat (a + Z.of_nat (List.length pre))) with (List.length pre + Z.to_nat a)%nat by lia.
  rewrite nth_error_app2, nth_error_app1 by lia. f_equal. lia.
Qed.
Lemma znth_dom : forall {A B} (v : list A) (v' : list B) i, List.length v = List.length v' ->
  match znth v i, znth v' i with Some _, Some _ | None, None => True | _, _ => False end.
Proof.
  intros A B v v' i Hl. destruct (znth v i) eqn:E, (znth v' i) eqn:E'; auto;
    [apply znth_Some in E; apply znth_none in E'|apply znth_none in E; apply znth_Some in E']; unfold zlen in *; lia.
Qed.
Lemma nset_mid : forall {A} (pre sl post : list A) n v, (n < List.length sl)%nat ->
  nset (pre ++ sl ++ post) (n + List.length pre) v = (pre ++ nset sl n v ++ post)%list.
Proof.
  intros A pre sl post n v H. induction pre as [|x pre IH]; cbn [app List.length].
  - rewrite Nat.add_0_r. revert n H. induction sl as [|y sl IHs]; intros n H; [cbn in H; lia|].
    destruct n; cbn [nset app]; [reflexivity|]. rewrite IHs; [reflexivity|cbn in H; lia].
  - replace (n + S (List.length pre))%nat with (S (n + List.length pre)) by lia. cbn [nset]. rewrite IH. reflexivity.
Qed.
Lemma zset_mid : forall {A} (pre sl post : list A) a v, 0 <= a < zlen sl ->
  zset (pre ++ sl ++ post) (a + zlen pre) v = (pre ++ zset sl a v ++ post)%list.
Proof.
  intros A pre sl post a v H. unfold zset, zlen in *.
  replace (a + Z.of_nat (List.length pre) <? 0) with false by (symmetry; apply Z.ltb_ge; lia).
  replace (a <? 0) with false by (symmetry; apply Z.ltb_ge; lia).
  replace (Z.to_nat (a + Z.of_nat (List.length pre))) with (Z.to_nat a + List.length pre)%nat by lia.
  apply nset_mid. lia.
Qed.

Lemma nth_error_nset : forall {A} (l : list A) n m v,
  nth_error (nset l n v) m = if Nat.eqb n m then (match nth_error l m with Some _ => Some v | None => None end) else nth_error l m.
Proof.
  induction l as [|x l IH]; intros n m v.
  - destruct n, m; cbn [nset nth_error Nat.eqb]; try reflexivity; destruct (Nat.eqb n m); reflexivity.
  - destruct n, m; cbn [nset nth_error Nat.eqb]; try reflexivity. apply IH.
Qed.
Lemma znth_zset : forall {A} (l : list A) i j v, 0 <= i ->
  znth (zset l i v) j = if i =? j then (match znth l j with Some _ => Some v | None => None end) else znth l j.
Proof.
  intros A l i j v Hi. unfold zset. replace (i <? 0) with false by (symmetry; apply Z.ltb_ge; lia).
  unfold znth. destruct (j <? 0) eqn:Ej.
  - apply Z.ltb_lt in Ej. replace (i =? j) with false by (symmetry; apply Z.eqb_neq; lia). reflexivity.
  - apply Z.ltb_ge in Ej. rewrite nth_error_nset.
    destruct (i =? j) eqn:E.
    + apply Z.eqb_eq in E. subst. rewrite Nat.eqb_refl. reflexivity.
    + apply Z.eqb_neq in E. replace (Nat.eqb (Z.to_nat i) (Z.to_nat j)) with false; [reflexivity|].
      symmetry. apply Nat.eqb_neq. lia.
Qed.

Definition codes_list : list Z := map snd opcodes.

(* the opcode constants [C "codeX"] of the goal and the hypotheses as numerals, looked up in the generated table *)
Ltac C_to_num :=
  repeat match goal with
         | |- context [C ?n] => let k := eval vm_compute in (C n) in change (C n) with k
         | H : context [C ?n] |- _ => let k := eval vm_compute in (C n) in change (C n) with k in H
         end.

Lemma code_cases c : In c codes_list \/ existsb (Z.eqb c) codes_list = false.
Proof.
  destruct (existsb (Z.eqb c) codes_list) eqn:E; [left|right; reflexivity].
  apply existsb_exists in E. destruct E as (k & Hk & E). apply Z.eqb_eq in E. now subst.
Qed.

Lemma code_other c k : existsb (Z.eqb c) codes_list = false -> existsb (Z.eqb k) codes_list = true -> (c =? k) = false.
Proof.
  intros Hc Hk. apply existsb_exists in Hk. destruct Hk as (k' & Hin & E). apply Z.eqb_eq in E. subst k'.
  destruct (c =? k) eqn:E; [|reflexivity]. rewrite <- Hc. symmetry. apply existsb_exists. eauto.
Qed.

(* Z.eqb under a name of its own: unfolding it decides the comparisons of a numeral with the opcodes and
   leaves every other comparison as it is written *)
Definition code_eqb : Z -> Z -> bool := Eval cbv beta delta [Z.eqb Pos.eqb] in fun a b => Z.eqb a b.

(* the constants c_X of Model/VM.v are listed by hand: a new one has to be added here *)
Ltac codes_cbv t :=
  eval cbv beta iota delta [code_eqb orb
    c_Add c_And c_Append c_BitAnd c_BitComplement c_BitLsh c_BitOr c_BitRsh c_BitXor c_Call
    c_CallVariadic c_Cast c_Const c_Convert c_Copy c_Div c_Eq c_FastCall c_FastGetInt c_FastSetInt
    c_Func c_Get c_GlobalFunc c_GlobalGet c_GlobalRef c_GlobalSet c_GlobalZero c_Gt c_Gte c_IncDec
    c_Iter c_Jump c_JumpFalse c_JumpTrue c_Len c_LocalAdd c_LocalDiv c_LocalGet c_LocalIncDec
    c_LocalMul c_LocalSet c_LocalSub c_LocalZero c_Lt c_Lte c_Make c_Mod c_Mul c_Negate c_Neq
    c_NewSlice c_Not c_Or c_Panic c_Pass c_Pop c_Push c_Range c_Return c_Set c_Slice c_Sub c_Zero
    c_FastGet c_FastSet c_GetAttr c_SetAttr c_FastGetAttr c_FastSetAttr c_FastCallAttr] in t.

(* decides, in the goal, the comparisons of the numeral k with the opcodes *)
Ltac code_tests k :=
  cbn [icode iA iB iC ipos]; change (Z.eqb k) with (code_eqb k);
  match goal with |- ?G => let G' := codes_cbv G in change G' end.

(* [step1 .. (mkI k ..) ..] for a numeral k, reduced to the branch of k: the tests of k against the
   opcodes are decided, every other comparison stays as written *)
Ltac step1_branch t k :=
  let t := eval cbv beta iota zeta delta [VM.step1 bin_of local_bin_of icode ipos] in t in
  let t := eval pattern (Z.eqb k) in t in
  let t := lazymatch t with ?F _ => constr:(F (code_eqb k)) end in
  let t := codes_cbv t in
  eval cbn [iA iB iC] in t.

Section Exec.
  Variable grow : Z -> Z -> Z.
  Variable ext_get : st -> value -> value -> option (res value).
  Variable ext_set : st -> value -> value -> value -> option (res st).
  Variable ext_len : st -> value -> option Z.
  Variable ext_getattr : st -> value -> Z -> option (res (value * st)).
  Variable ext_setattr : st -> value -> Z -> value -> option (res st).
  Notation step1 := (VM.step1 grow ext_get ext_set ext_len ext_getattr ext_setattr).
  Notation exec := (VM.exec grow ext_get ext_set ext_len ext_getattr ext_setattr).
  Notation call_fn := (VM.call_fn grow ext_get ext_set ext_len ext_getattr ext_setattr).

  (* A negative code differs from every opcode by its sign alone.  Every opcode is below 2^7, so a
     positive code outside the table either has eight binary digits or more, and
     Pos.eqb against each opcode computes to false whatever the higher digits are, or is one of the
     remaining small numerals: all tests of the chain are decided once seven digits are known. *)
  Lemma step1_other codes pc i slots ops s : existsb (Z.eqb (icode i)) codes_list = false ->
    step1 codes pc i slots ops s = if icode i <? 0 then SFail "unknown code" s else SUnmod "opcode".
  Proof.
    destruct i as [c a b cc p]. cbn [icode].
    destruct c as [|q|q]; [| do 7 (try destruct q as [q|q|]) |];
      (* reflexivity first: discriminate evaluates the whole existsb before it fails outside the table *)
      intro H; first [reflexivity | discriminate H].
  Qed.

  Definition step1_branches codes pc a b cc p sl ops s : list sres :=
    ltac:(let rec go l :=
            lazymatch l with
            | nil => constr:(@nil sres)
            | ?k :: ?r => let t := step1_branch (step1 codes pc (mkI k a b cc p) sl ops s) k in
                          let r := go r in constr:(t :: r)
            end in
          let l := eval cbv in codes_list in let t := go l in exact t).

  Lemma step1_branches_eq codes pc a b cc p sl ops s :
    step1_branches codes pc a b cc p sl ops s = map (fun k => step1 codes pc (mkI k a b cc p) sl ops s) codes_list.
  Proof. reflexivity. Qed.

  Lemma step1_nth n k : nth_error codes_list n = Some k -> forall codes pc a b cc p sl ops s,
    step1 codes pc (mkI k a b cc p) sl ops s = nth n (step1_branches codes pc a b cc p sl ops s) (SUnmod "opcode").
  Proof.
    intros H codes pc a b cc p sl ops s. rewrite step1_branches_eq. symmetry.
    apply nth_error_nth. exact (map_nth_error _ _ _ H).
  Qed.

  Lemma exec_S f codes pc slots ops s :
    exec (S f) codes pc slots ops s =
    match znth codes pc with
    | None => RDone slots ops s
    | Some i =>
        match step1 codes pc i slots ops s with
        | SNext slots' ops' s' => exec f codes (pc + 1) slots' ops' s'
        | SJump d slots' ops' s' => exec f codes (pc + d + 1) slots' ops' s'
        | SCall pack fa xArgs xRets slots' ops' s' =>
            match call_fn f pack fa xArgs xRets (ipos i) ops' s' with
            | COk ops'' s'' => exec f codes (pc + 1) slots' ops'' s''
            | CErr r => r
            end
        | SRet slots' ops' s' => RDone slots' ops' s'
        | SFail msg s' => RFail msg (ipos i) s'
        | SStuck w => RStuck w
        | SUnmod w => RUnmod w
        end
    end.
  Proof. reflexivity. Qed.

End Exec.

(* the position of the opcode k in the table *)
Ltac code_index k :=
  let k := eval cbv in k in
  let rec go l n := lazymatch l with k :: _ => n | _ :: ?r => go r (S n) end in
  let l := eval cbv in codes_list in go l O.

(* rewrites [step1 .. (mkI k ..) ..], k an opcode of the table, to the branch of k *)
Ltac step1_eval :=
  match goal with
  | |- context [VM.step1 ?g ?e1 ?e2 ?e3 ?e4 ?e5 ?codes ?pc (mkI ?k ?a ?b ?cc ?p) ?sl ?ops ?s] =>
      let n := code_index k in
      let t := eval cbv beta iota delta [nth step1_branches] in
        (nth n (step1_branches g e1 e2 e3 e4 e5 codes pc a b cc p sl ops s) (SUnmod "opcode")) in
      rewrite (step1_nth g e1 e2 e3 e4 e5 n k eq_refl codes pc a b cc p sl ops s);
      change (nth n (step1_branches g e1 e2 e3 e4 e5 codes pc a b cc p sl ops s) (SUnmod "opcode")) with t
  end.

(* case analysis on the scrutinee of an innermost match of the goal *)
Ltac split_match :=
  match goal with
  | |- context [match ?x with _ => _ end] =>
      lazymatch x with context [match _ with _ => _ end] => fail | _ => destruct x end
  end.

(* splits a goal about [step1 .. i ..] into one goal per opcode of the table, with i = mkI k .. for the
   numeral k, the comparisons of k with opcodes decided and step1 reduced to the branch of k, and one goal
   for the codes outside the table *)
Ltac opcode_case :=
  cbn [icode iA iB iC ipos];
  lazymatch goal with |- context [mkI ?k _ _ _ _] => code_tests k; repeat step1_eval end.
Ltac by_opcode i :=
  let H := fresh "Hc" in
  destruct (code_cases (icode i)) as [H|H];
  [ destruct i as [?c ?a ?b ?cc ?p]; cbn [icode] in H; vm_compute in H;
    repeat (destruct H as [<-|H]; [opcode_case|]); [..|contradiction H]
  | match goal with
    | |- context [VM.step1 ?g ?e1 ?e2 ?e3 ?e4 ?e5 ?codes ?pc i ?sl ?ops ?s] =>
        rewrite (step1_other g e1 e2 e3 e4 e5 codes pc i sl ops s H)
    end ].
