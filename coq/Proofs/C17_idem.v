(* C17, part 4: loading the same version twice in a row is the same as loading it
   once -- the second Load leaves the machine state unchanged, so every later
   observation sequence gets the same answers.  Assumption on initialisers: they
   are constants or references to declared functions (an initialiser that
   allocates -- &T{...}, a bound method -- gives a new object on every Load; that
   case is covered by the differential, c17-script check "reload-same-source"). *)
From Coq Require Import ZArith List Bool Lia.
From GV Require Import Model.Reload Proofs.C17_base Proofs.C17_reload Proofs.C17_hist.
Import ListNotations.
Open Scope Z_scope.

Definition simple_init (S : sig) : Prop :=
  forall n e, In (VSet n e) (svars S) ->
    (exists z, e = EArg (AConst z)) \/ (exists f, e = EArg (APath (PGlobal f)) /\ In f (sfuncs S)).

Lemma noop_list : forall is st, Forall (fun i => exec_instr st i = Some st) is -> exec_list st is = Some st.
Proof. induction is; simpl; intros; auto. inv H. rewrite H2. auto. Qed.

Lemma overwrite_noop : forall st a b, nth_error (funcs st) a = Some (FBody b) -> overwrite st a b = Some st.
Proof. intros. rewrite overwrite_lt by (eapply nth_lt; eauto). now rewrite upd_noop, st_eta_funcs. Qed.

Section Idem.
  Variable S : sig.
  Hypothesis WF : wf_sig S.
  Hypothesis SI : simple_init S.
  Variable B : bodies.

  Lemma exec_tfields : forall st i st' t ta ty, Inv S st -> instr_ok S i -> exec_instr st i = Some st' ->
    In t (tnames S) -> gget st t = VType ta -> nth_error (types st) ta = Some ty -> writes i <> Some t ->
    gget st' t = VType ta /\ exists ty', nth_error (types st') ta = Some ty' /\ tfields ty' = tfields ty.
  Proof.
    intros st i st' t ta ty I OK E T G N NE.
    split.
    { destruct (exec_types S WF _ _ _ OK E) as [_ TG]. destruct (TG t T) as [EQ|(W & _)]; congruence. }
    destruct i; simpl in OK.
    - apply exec_GlobalStruct in E. destruct E as [[G0 ->]|(ta0 & ty0 & G0 & N0 & ->)]; simpl.
      + exists ty. split; auto. now apply nth_app_old.
      + exists ty. split; auto. rewrite nth_upd_other; auto.
        intros ->. apply NE. simpl. f_equal. eapply (inv_tyinj S st I); eauto.
    - apply exec_SetMethod in E. destruct E as (ta0 & ty0 & G0 & N0 & [(a & _ & _ & ->)|(_ & ->)]); simpl; eauto.
      destruct (Nat.eq_dec ta0 ta) as [->|].
      + rewrite nth_upd_same by (eapply nth_lt; eauto). eexists. split; eauto. simpl. congruence.
      + exists ty. split; auto. rewrite nth_upd_other; auto.
    - apply exec_GlobalFunc in E. destruct E as [[_ ->]|(a & _ & _ & ->)]; simpl; eauto.
    - apply exec_GlobalZero in E. destruct E as [[_ ->]|[_ ->]]; simpl; eauto.
    - apply exec_GlobalSet in E. destruct E as (st1 & v & _ & (TT & _) & ->). simpl. rewrite TT. eauto.
  Qed.

  Lemma exec_list_tfields : forall is st st' t ta ty, Inv S st -> Forall (instr_ok S) is -> exec_list st is = Some st' ->
    In t (tnames S) -> gget st t = VType ta -> nth_error (types st) ta = Some ty ->
    Forall (fun i => writes i <> Some t) is ->
    gget st' t = VType ta /\ exists ty', nth_error (types st') ta = Some ty' /\ tfields ty' = tfields ty.
  Proof.
    induction is as [|i is IH]; simpl; intros st st' t ta ty I OK E T G N NE.
    - inv E. eauto.
    - inv OK. inv NE. destruct (exec_instr st i) as [st1|] eqn:E1; try discriminate.
      destruct (exec_tfields _ _ _ _ _ _ I H1 E1 T G N H3) as (G1 & ty1 & N1 & TF1).
      destruct (IH _ _ _ _ _ (exec_inv S WF _ _ _ H1 I E1) H2 E T G1 N1 H4) as (G2 & ty2 & N2 & TF2).
      split; auto. exists ty2. split; auto. congruence.
  Qed.

  Lemma post_types : forall st st1 t fs, Inv S st -> exec_list st (version_of S B) = Some st1 -> In (t, fs) (stypes S) ->
    exists ta ty, gget st1 t = VType ta /\ nth_error (types st1) ta = Some ty /\
                  forall k v, In (k, v) fs -> lookup k (tfields ty) = Some v.
  Proof.
    intros st st1 t fs I E HI.
    pose proof (wf_fields S WF t fs HI) as NDF.
    assert (T : In t (tnames S)) by (apply (in_map fst _ _ HI)).
    assert (IN : In (GlobalStruct t fs) (version_of S B)).
    { rewrite version_of_eq. apply in_or_app. left. exact (in_map (fun tf => GlobalStruct (fst tf) (snd tf)) _ _ HI). }
    destruct (in_split _ _ IN) as (l1 & l2 & VEQ).
    destruct (load_at S WF B _ _ _ t _ _ VEQ eq_refl E) as (sa & sb & E1 & EB & E2 & _ & W2).
    destruct (version_ok S B) as [VO _]. rewrite VEQ in VO. apply Forall_app in VO. destruct VO as [VO1 VO2]. inv VO2.
    pose proof (exec_inv S WF _ _ _ H1 (exec_list_inv S WF _ _ _ VO1 I E1) EB) as Ib.
    assert (exists ta ty, gget sb t = VType ta /\ nth_error (types sb) ta = Some ty /\
                          forall k v, In (k, v) fs -> lookup k (tfields ty) = Some v) as (ta & ty & Gb & Nb & Lb).
    { apply exec_GlobalStruct in EB. destruct EB as [[G0 ->]|(ta & ty & G0 & N0 & ->)].
      - exists (length (types sa)), (mkTy fs []). rewrite gget_gset_same. simpl. rewrite nth_app_new.
        repeat split; auto. intros. now apply lookup_nodup.
      - exists ta. eexists. simpl. rewrite gget_set_types. rewrite nth_upd_same by (eapply nth_lt; eauto).
        repeat split; eauto. simpl. intros. now apply lookup_fold_upsert. }
    destruct (exec_list_tfields _ _ _ _ _ _ Ib H2 E2 T Gb Nb W2) as (G1 & ty1 & N1 & TF1).
    exists ta, ty1. repeat split; auto. intros. rewrite TF1. auto.
  Qed.

  Theorem load_idem : forall st st1, Inv S st -> exec_list st (version_of S B) = Some st1 ->
    exec_list st1 (version_of S B) = Some st1.
  Proof.
    intros st st1 I E. apply noop_list.
    destruct (version_ok S B) as [VO VB].
    assert (P1 : forall k, key_ok S k -> exists a, fn_addr st1 k = Some a /\ nth_error (funcs st1) a = Some (FBody (body_of B k))).
    { intros k KO. destruct (exec_list_defined S WF _ _ _ VO I E k KO (version_has_key S B k KO)) as [a F].
      exists a. split; auto.
      apply (exec_list_latest S WF B _ _ _ VO VB I E k a KO F). now apply version_has_key. }
    unfold version_of. repeat rewrite Forall_app. repeat split; apply Forall_forall; intros i II;
      apply in_map_iff in II; destruct II as (x & <- & II).
    - destruct x as [t fs]. simpl.
      destruct (post_types _ _ _ _ I E II) as (ta & ty & G & N & L).
      rewrite G, N. rewrite fold_upsert_noop by exact L.
      assert (mkTy (tfields ty) (tmethods ty) = ty) as -> by (destruct ty; reflexivity).
      rewrite upd_noop by exact N. now rewrite st_eta_types.
    - destruct x as [t m]. destruct (P1 (KMeth t m) II) as (a & F & C).
      apply fn_addr_meth in F. destruct F as (ta & ty & G & N & L). simpl. rewrite G, N, L. now apply overwrite_noop.
    - destruct (P1 (KFunc x) II) as (a & F & C). simpl in *.
      destruct (gget st1 x); inv F. now apply overwrite_noop.
    - destruct x as [n z|n e]; simpl.
      + pose proof (load_zero S WF B _ _ _ _ II E) as L. destruct (is_nil (gget st1 n)) eqn:NN; auto.
        destruct (is_nil (gget st n)) eqn:N0; [now rewrite gset_noop|]. apply gget_lookup in L. congruence.
      + destruct (SI _ _ II) as [[z ->]|(f & -> & HF)]; simpl; rewrite gset_noop; auto.
        * eapply load_const; eauto.
        * eapply load_funcref; eauto.
  Qed.
End Idem.

(* over histories: Load v; Load v is observationally equal to Load v *)
Theorem idem : forall S beta, wf_sig S -> simple_init S ->
  forall h0 st o0 v h, hist_ok S h0 -> run (prog S beta) init_state h0 = Some (st, o0) ->
    run (prog S beta) st (HLoad v :: HLoad v :: h) = run (prog S beta) st (HLoad v :: h).
Proof.
  intros S beta WF SI h0 st o0 v h OK R.
  destruct (run_good S WF beta _ _ _ _ OK (inv_init S) R) as (I & _).
  simpl. destruct (exec_list st (prog S beta v)) as [st1|] eqn:E; auto.
  unfold prog in *. rewrite (load_idem S WF SI (beta v) _ _ I E).
  destruct (run (fun v0 => version_of S (beta v0)) st1 h) as [[st2 ob]|]; reflexivity.
Qed.
