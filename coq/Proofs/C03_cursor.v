(* C03: every table of parser functions that passes Cursor.table_ok terminates on every token list and
   every oracle; goatlang's table passes. *)
From Coq Require Import ZArith List Bool Lia PeanoNat Wf_nat.
From GV Require Import Model.Cursor.
Import ListNotations.
Open Scope Z_scope.

(* e is a lower bound of v (note the order of the arguments).  chk answers None for an exit it found
   impossible, and `ele v None = False` makes a run through that exit contradictory: each case of frame
   below turns on it. *)
Definition ele (v : Z) (e : ext) : Prop := match e with None => False | Some x => x <= v end.

Lemma ele_min_l : forall v a b, ele v a -> ele v (emin a b).
Proof. intros v [x|] [y|] H; cbn in *; try lia; try contradiction. Qed.
Lemma ele_min_r : forall v a b, ele v b -> ele v (emin a b).
Proof. intros v [x|] [y|] H; cbn in *; try lia; try contradiction. Qed.
Lemma ele_mono : forall v v' e, ele v e -> v <= v' -> ele v' e.
Proof. intros v v' [x|] H L; cbn in *; [lia|contradiction]. Qed.

Section Term.
  Variable tbl : nat -> prog.
  Variable rank : nat -> nat.
  Variable gain : nat -> Z.
  Variable nf : nat.
  Variable n : Z.
  Variable oracle : nat -> bool.

  Notation Exec := (Exec tbl n oracle).

  Definition call_post (f : nat) (c : Z) (o : out) : Prop :=
    match o with ONorm c' => c + gain f <= c' <= n | OBrk _ => False | OPanic => True end.

  Section Frame.
    Variable self : nat.
    Variable c0 : Z.                 (* cursor at function entry *)
    (* calls that are smaller in the lexicographic order (tokens left, rank) terminate *)
    Hypothesis IHcall : forall f c k, (f < nf)%nat -> c <= n ->
      (c0 + 1 <= c \/ (c0 <= c /\ (rank f < rank self)%nat)) ->
      exists o k', Exec (Call f) c k o k' /\ call_post f c o.

    (* a piece of program started at c, where the gain since function entry was at least g, ends with a gain of
       at least nb (normally) or bb (by break), inside the token list *)
    Definition post (g : Z) (nb bb : ext) (c : Z) (o : out) : Prop :=
      match o with
      | ONorm c' => ele (c' - c + g) nb /\ c' <= n
      | OBrk c' => ele (c' - c + g) bb /\ c' <= n
      | OPanic => True
      end.

    Lemma post_weaken : forall g nb bb nb' bb' c o,
      (forall v, ele v nb -> ele v nb') -> (forall v, ele v bb -> ele v bb') ->
      post g nb bb c o -> post g nb' bb' c o.
    Proof. intros g nb bb nb' bb' c [c'|c'|] Hn Hb; cbn; [intros [P1 P2]; auto..|trivial]. Qed.

    (* the same exits seen from an earlier point c of the function, where the bound was g *)
    Lemma post_shift : forall g g' nb bb c c' o, g' <= c' - c + g -> post g' nb bb c' o -> post g nb bb c o.
    Proof.
      intros g g' nb bb c c' [c''|c''|] H; cbn; [intros [P1 P2]; split; [eapply ele_mono; [exact P1|lia]|exact P2]..|trivial].
    Qed.

    (* a loop whose body gains a token per normal iteration: by induction on the tokens left *)
    Lemma loop_frame : forall b g nb bb,
      (forall c k, c0 + g <= c -> c <= n -> exists o k', Exec b c k o k' /\ post g nb bb c o) ->
      match nb with None => true | Some x => g + 1 <=? x end = true ->
      forall c k, c0 + g <= c -> c <= n -> exists o k', Exec (Loop b) c k o k' /\ post g (emin (Some g) bb) None c o.
    Proof.
      intros b g nb bb Hb Eg c k.
      assert (L : forall m c k, n - c <= Z.of_nat m -> c0 + g <= c -> c <= n ->
                exists o k', Exec (Loop b) c k o k' /\ post g (emin (Some g) bb) None c o).
      { induction m as [m IHm] using lt_wf_ind; intros c1 k1 Hm Hc1 Hn1.
        destruct (oracle k1) eqn:Eo.
        - destruct (Hb c1 (S k1) Hc1 Hn1) as (o & k' & X & P).
          destruct o as [c'|c'|].
          + (* fewer tokens are left for the rest of the loop *)
            cbn in P. destruct P as [P1 P2]. destruct nb as [x|]; [|destruct P1]. cbn in P1.
            apply Z.leb_le in Eg.
            destruct (IHm (Z.to_nat (n - c')) ltac:(lia) c' k' ltac:(lia) ltac:(lia) P2) as (o2 & k2 & X2 & Q).
            exists o2, k2. split; [eapply E_LoopIter; eauto|]. eapply post_shift; [|exact Q]. lia.
          + exists (ONorm c'), k'. split; [eapply E_LoopBrk; eauto|]. cbn [post] in *. destruct P. split; [apply ele_min_r|]; assumption.
          + exists OPanic, k'. split; [eapply E_LoopPanic; eauto|exact I].
        - exists (ONorm c1), (S k1). split; [apply E_LoopExit; assumption|]. cbn [post]. split; [|assumption].
          apply ele_min_l. cbn. lia. }
      intros. apply (L (Z.to_nat (n - c))); lia.
    Qed.

    Lemma frame : forall p g nb bb, chk rank gain nf self g p = Some (nb, bb) ->
      forall c k, c0 + g <= c -> c <= n -> exists o k', Exec p c k o k' /\ post g nb bb c o.
    Proof.
      induction p as [| | | |a IHa b IHb|a IHa b IHb|b IHb| |f]; intros g nb bb H c k Hc Hn; cbn [chk] in H.
      - inversion H; subst. exists (ONorm c), k. split; [constructor|]. cbn. split; lia.
      - exists OPanic, k. split; [constructor|exact I].
      - inversion H; subst.
        assert (D : 0 <= c < n \/ ~ (0 <= c < n)) by lia. destruct D as [D|D].
        + exists (ONorm (c + 1)), k. split; [constructor; exact D|]. cbn. split; lia.
        + exists OPanic, k. split; [apply E_NextOut; exact D|exact I].
      - inversion H; subst. exists (ONorm (c - 2)), k. split; [constructor|]. cbn. split; lia.
      - (* Seq: a break or a panic of a ends the sequence; b runs only after a normal end of a, which a
           check result None for a rules out *)
        destruct (chk rank gain nf self g a) as [[na ba]|] eqn:Ea; [|discriminate].
        destruct (IHa _ _ _ Ea c k Hc Hn) as (oa & ka & Xa & Pa).
        destruct oa as [c'|c'|]; cbn in Pa.
        + destruct Pa as [Pa1 Pa2]. destruct na as [g'|]; [|destruct Pa1]. cbn in Pa1.
          destruct (chk rank gain nf self g' b) as [[nb' bb']|] eqn:Eb; [|discriminate]. inversion H; subst.
          destruct (IHb _ _ _ Eb c' ka ltac:(lia) Pa2) as (ob & kb & Xb & Pb).
          exists ob, kb. split; [eapply E_Seq; eauto|].
          eapply post_shift; [exact Pa1|]. eapply post_weaken; [| |exact Pb]; [auto|intros; apply ele_min_r; assumption].
        + exists (OBrk c'), ka. split; [apply E_SeqBrk; assumption|]. destruct Pa as [Pa1 Pa2].
          destruct na as [g'|]; [destruct (chk rank gain nf self g' b) as [[nb' bb']|]; [|discriminate]|];
            inversion H; subst; cbn; auto using ele_min_l.
        + exists OPanic, ka. split; [apply E_SeqPanic; assumption|exact I].
      - destruct (chk rank gain nf self g a) as [[na ba]|] eqn:Ea; [|discriminate].
        destruct (chk rank gain nf self g b) as [[nb' bb']|] eqn:Eb; [|discriminate]. inversion H; subst.
        destruct (oracle k) eqn:Eo.
        + destruct (IHa _ _ _ Ea c (S k) Hc Hn) as (o & k' & X & P).
          exists o, k'. split; [apply E_ChoiceL; assumption|].
          eapply post_weaken; [| |exact P]; intros; apply ele_min_l; assumption.
        + destruct (IHb _ _ _ Eb c (S k) Hc Hn) as (o & k' & X & P).
          exists o, k'. split; [apply E_ChoiceR; assumption|].
          eapply post_weaken; [| |exact P]; intros; apply ele_min_r; assumption.
      - destruct (chk rank gain nf self g b) as [[nb' bb']|] eqn:Eb; [|discriminate].
        destruct (match nb' with None => true | Some x => g + 1 <=? x end) eqn:Eg; [|discriminate].
        inversion H; subst. exact (loop_frame b g nb' bb' (IHb _ _ _ Eb) Eg c k Hc Hn).
      - inversion H; subst. exists (OBrk c), k. split; [constructor|]. cbn. split; lia.
      - destruct ((0 <=? g) && ((1 <=? g) || (rank f <? rank self)%nat) && (f <? nf)%nat) eqn:E; [|discriminate].
        inversion H; subst. apply andb_true_iff in E as [E Ef]. apply andb_true_iff in E as [E0 E1].
        apply Z.leb_le in E0. apply Nat.ltb_lt in Ef.
        assert (Hm : c0 + 1 <= c \/ (c0 <= c /\ (rank f < rank self)%nat)).
        { apply orb_true_iff in E1 as [E1|E1]; [apply Z.leb_le in E1; left; lia|apply Nat.ltb_lt in E1; right; split; [lia|assumption]]. }
        destruct (IHcall f c k Ef Hn Hm) as (o & k' & X & P).
        exists o, k'. split; [assumption|].
        destruct o as [c'|c'|]; cbn in *; [split; lia|contradiction|exact I].
    Qed.
  End Frame.

  Hypothesis Hok : table_ok tbl rank gain nf = true.

  Lemma fun_ok_of : forall f, (f < nf)%nat -> fun_ok tbl rank gain nf f = true.
  Proof.
    intros f Hf. unfold table_ok in Hok. rewrite forallb_forall in Hok. apply Hok. apply in_seq. lia.
  Qed.

  Lemma calls_terminate : forall m r f c k, (f < nf)%nat -> c <= n -> n - c <= Z.of_nat m -> (rank f <= r)%nat ->
    exists o k', Exec (Call f) c k o k' /\ call_post f c o.
  Proof.
    induction m as [m IHm] using lt_wf_ind. induction r as [r IHr] using lt_wf_ind.
    intros f c k Hf Hc Hm Hr.
    pose proof (fun_ok_of f Hf) as Hfo. unfold fun_ok in Hfo.
    destruct (chk rank gain nf f 0 (tbl f)) as [[nb [bb|]]|] eqn:Ec; try discriminate.
    assert (IHcall : forall f' c' k', (f' < nf)%nat -> c' <= n ->
              (c + 1 <= c' \/ (c <= c' /\ (rank f' < rank f)%nat)) ->
              exists o k'', Exec (Call f') c' k' o k'' /\ call_post f' c' o).
    { intros f' c' k' Hf' Hc' [H|[H1 H2]].
      - destruct m as [|m']; [lia|].
        apply (IHm m' ltac:(lia) (rank f') f' c' k' Hf' Hc'); lia.
      - apply (IHr (rank f') ltac:(lia) f' c' k' Hf' Hc'); lia. }
    destruct (frame f c IHcall (tbl f) 0 nb None Ec c k ltac:(lia) Hc) as (o & k' & X & P).
    exists (ret o), k'. split; [constructor; assumption|].
    destruct o as [c'|c'|]; cbn in *.
    - destruct P as [P1 P2]. destruct nb as [x|]; [|destruct P1]. cbn in P1. apply Z.leb_le in Hfo. lia.
    - destruct P as [[] _].
    - exact I.
  Qed.

End Term.

Theorem table_terminates : forall (tbl : nat -> prog) (rank : nat -> nat) (gain : nat -> Z) (nf : nat),
  table_ok tbl rank gain nf = true ->
  forall (n : Z) (oracle : nat -> bool) f c k, (f < nf)%nat -> c <= n ->
  exists o k', Exec tbl n oracle (Call f) c k o k' /\ (forall c', o = ONorm c' -> c + gain f <= c' <= n).
Proof.
  intros tbl rank gain nf H n oracle f c k Hf Hc.
  destruct (calls_terminate tbl rank gain nf n oracle H (Z.to_nat (n - c)) (rank f) f c k Hf Hc ltac:(lia) ltac:(lia))
    as (o & k' & X & P).
  exists o, k'. split; [assumption|]. intros c' ->. exact P.
Qed.

Lemma goat_table_ok : table_ok goat_table goat_rank goat_gain goat_nf = true.
Proof. vm_compute. reflexivity. Qed.
