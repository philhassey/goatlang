(* C11, part 1: facts about GoSpec/GoSlice.v itself (any element type): cell-level
   description of every operation, aliasing, append in place / beyond capacity, copy,
   bounds, preservation of well-formedness. *)
From Coq Require Import ZArith List Bool Lia Arith.
From GV Require Import GoSpec.GoPrim GoSpec.GoSlice.
Import ListNotations.

Lemma nth_error_firstn' {A} (l : list A) n i : (i < n)%nat -> nth_error (firstn n l) i = nth_error l i.
Proof.
  revert n i. induction l as [|a l IH]; intros [|n] [|i] H; try reflexivity; try (exfalso; lia).
  apply IH. lia.
Qed.

Lemma nth_error_skipn' {A} (l : list A) n i : nth_error (skipn n l) i = nth_error l (n + i).
Proof.
  revert l. induction n as [|n IH]; intros l; [reflexivity|].
  destruct l as [|a l]; cbn; [destruct i; reflexivity|]. apply IH.
Qed.

Lemma list_ext {A} (l1 l2 : list A) : (forall i, nth_error l1 i = nth_error l2 i) -> l1 = l2.
Proof.
  revert l2. induction l1 as [|a l1 IH]; intros [|b l2] H; try reflexivity; try discriminate (H 0%nat).
  injection (H 0%nat) as ->. f_equal. apply IH. intros i. exact (H (S i)).
Qed.

Lemma list_ext_len {A} (l1 l2 : list A) : length l1 = length l2 ->
  (forall i, (i < length l1)%nat -> nth_error l1 i = nth_error l2 i) -> l1 = l2.
Proof.
  intros L H. apply list_ext. intros i. destruct (Nat.lt_ge_cases i (length l1)) as [Hi|Hi]; [auto|].
  rewrite (proj2 (nth_error_None l1 i)), (proj2 (nth_error_None l2 i)) by lia. reflexivity.
Qed.

Lemma nth_nth_error {A} (l : list A) n d :
  nth n l d = match nth_error l n with Some v => v | None => d end.
Proof. revert n. induction l; intros [|n]; cbn; auto. Qed.

Lemma write_length {A} (l : list A) k vs : length (write l k vs) = length l.
Proof.
  unfold write. destruct (Nat.leb_spec (k + length vs) (length l)); [|reflexivity].
  rewrite !app_length, firstn_length, skipn_length. lia.
Qed.

Lemma write_nofit {A} (l : list A) k vs : (length l < k + length vs)%nat -> write l k vs = l.
Proof. intros H. unfold write. apply Nat.leb_gt in H. rewrite H. reflexivity. Qed.

(* a position is inside the written range or not: the two cases of every fact about write *)
Lemma in_or_out k n i : (k <= i < k + n)%nat \/ (i < k \/ k + n <= i)%nat.
Proof. lia. Qed.

Lemma nth_error_write_in {A} (l : list A) k vs i : (k + length vs <= length l)%nat ->
  (k <= i < k + length vs)%nat -> nth_error (write l k vs) i = nth_error vs (i - k).
Proof.
  intros F H. unfold write. rewrite (proj2 (Nat.leb_le _ _) F).
  rewrite nth_error_app2; rewrite firstn_length_le by lia; [|lia]. apply nth_error_app1. lia.
Qed.

Lemma nth_error_write_out {A} (l : list A) k vs i : (i < k \/ k + length vs <= i)%nat ->
  nth_error (write l k vs) i = nth_error l i.
Proof.
  intros H. unfold write. destruct (Nat.leb_spec (k + length vs) (length l)) as [F|F]; [|reflexivity].
  destruct H as [H|H].
  - rewrite nth_error_app1 by (rewrite firstn_length_le; lia). apply nth_error_firstn'. exact H.
  - rewrite !nth_error_app2; rewrite ?firstn_length_le by lia; try lia.
    rewrite nth_error_skipn'. f_equal. lia.
Qed.

Lemma map_write {A B} (f : A -> B) l k vs : map f (write l k vs) = write (map f l) k (map f vs).
Proof.
  unfold write. rewrite !map_length. destruct (k + length vs <=? length l)%nat; [|reflexivity].
  rewrite !map_app, firstn_map, skipn_map. reflexivity.
Qed.

Lemma write_same {A} (l : list A) k vs :
  (forall i, (i < length vs)%nat -> nth_error l (k + i) = nth_error vs i) -> write l k vs = l.
Proof.
  intros H. destruct (Nat.le_gt_cases (k + length vs) (length l)) as [F|F]; [|apply write_nofit; exact F].
  apply list_ext. intros i. destruct (in_or_out k (length vs) i) as [D|D]; [|apply nth_error_write_out; exact D].
  rewrite nth_error_write_in, <- H by lia. f_equal. lia.
Qed.

Lemma write_middle {A} (p m r vs : list A) : length m = length vs ->
  write (p ++ m ++ r) (length p) vs = (p ++ vs ++ r)%list.
Proof.
  intros L. unfold write. rewrite !app_length, <- L.
  destruct (Nat.leb_spec (length p + length m) (length p + (length m + length r))); [|lia].
  rewrite firstn_app, firstn_all, Nat.sub_diag, app_nil_r.
  rewrite !skipn_app, !skipn_all2 by lia.
  replace (length p + length m - length p - length m)%nat with 0%nat by lia. reflexivity.
Qed.

Lemma nth_write_one {A} (l : list A) x g y d :
  nth y (write l x [g]) d = if (y =? x)%nat && (x <? length l)%nat then g else nth y l d.
Proof.
  destruct (Nat.ltb_spec x (length l)) as [H|H];
    [|rewrite write_nofit, andb_false_r by (cbn; lia); reflexivity].
  rewrite andb_true_r, nth_nth_error. destruct (Nat.eqb_spec y x) as [->|N].
  - rewrite nth_error_write_in, Nat.sub_diag by (cbn; lia). reflexivity.
  - rewrite nth_error_write_out by (cbn; lia). symmetry. apply nth_nth_error.
Qed.

Lemma range_spec i n : reflect (0 <= i < n)%Z ((0 <=? i)%Z && (i <? n)%Z).
Proof. destruct (Z.leb_spec0 0 i), (Z.ltb_spec0 i n); constructor; lia. Qed.

Section Facts.
  Context {V : Type}.
  Implicit Types (st : @store V) (s : slice).

  Definition cell st a i : option V := nth_error (array st a) i.

  Lemma length_arr_write st a k vs : length (arr_write st a k vs) = length st.
  Proof. apply write_length. Qed.

  Lemma array_arr_write st a k vs b :
    array (arr_write st a k vs) b =
    if (b =? a)%nat && (a <? length st)%nat then write (array st a) k vs else array st b.
  Proof. apply nth_write_one. Qed.

  Lemma array_length_arr_write st a k vs b :
    length (array (arr_write st a k vs) b) = length (array st b).
  Proof.
    rewrite array_arr_write. destruct (Nat.eqb_spec b a) as [->|]; [|reflexivity].
    destruct (a <? length st)%nat; [apply write_length|reflexivity].
  Qed.

  Lemma cell_write_in st a k vs i :
    (a < length st)%nat -> (k + length vs <= length (array st a))%nat -> (k <= i < k + length vs)%nat ->
    cell (arr_write st a k vs) a i = nth_error vs (i - k).
  Proof.
    intros Ha F H. unfold cell. apply Nat.ltb_lt in Ha. rewrite array_arr_write, Nat.eqb_refl, Ha.
    apply nth_error_write_in; assumption.
  Qed.

  Lemma cell_write_out st a k vs b i : b <> a \/ (i < k \/ k + length vs <= i)%nat ->
    cell (arr_write st a k vs) b i = cell st b i.
  Proof.
    intros H. unfold cell. rewrite array_arr_write. destruct (Nat.eqb_spec b a) as [->|]; [|reflexivity].
    destruct (a <? length st)%nat; [|reflexivity]. apply nth_error_write_out. tauto.
  Qed.

  Lemma cell_arr_write st a k vs b i : (a < length st)%nat -> (k + length vs <= length (array st a))%nat ->
    cell (arr_write st a k vs) b i =
    if (b =? a)%nat && ((k <=? i)%nat && (i <? k + length vs)%nat) then nth_error vs (i - k) else cell st b i.
  Proof.
    intros Ha F. destruct (Nat.eqb_spec b a) as [->|]; [|apply cell_write_out; auto].
    destruct (Nat.leb_spec k i); [|apply cell_write_out; lia].
    destruct (Nat.ltb_spec i (k + length vs)); [apply cell_write_in; auto|apply cell_write_out; lia].
  Qed.

  Lemma array_app_old st x a : (a < length st)%nat -> array (st ++ [x]) a = array st a.
  Proof. apply app_nth1. Qed.
  Lemma array_app_new st x : array (st ++ [x]) (length st) = x.
  Proof. apply nth_middle. Qed.

  Lemma cell_lt st a i v : cell st a i = Some v -> (a < length st)%nat.
  Proof.
    intros E. destruct (Nat.lt_ge_cases a (length st)) as [|H]; [assumption|].
    unfold cell, array in E. rewrite nth_overflow in E by exact H. destruct i; discriminate.
  Qed.

  Lemma store_ext_cell st1 st2 : length st1 = length st2 ->
    (forall a i, cell st1 a i = cell st2 a i) -> st1 = st2.
  Proof. intros L H. apply (nth_ext _ _ [] [] L). intros a _. apply list_ext, H. Qed.

  Definition store_all (P : nat -> V -> Prop) st : Prop := forall a i v, cell st a i = Some v -> P a v.

  Lemma store_all_nil P : store_all P [].
  Proof. intros a i v E. apply cell_lt in E. inversion E. Qed.

  Lemma store_all_app P st x : store_all P st -> Forall (P (length st)) x -> store_all P (st ++ [x]).
  Proof.
    intros H F a i v E. pose proof (cell_lt _ _ _ _ E) as La. rewrite app_length in La. unfold cell in E.
    destruct (Nat.eq_dec a (length st)) as [->|N].
    - rewrite array_app_new in E. apply nth_error_In in E. rewrite Forall_forall in F. auto.
    - rewrite array_app_old in E by (cbn in La; lia). exact (H a i v E).
  Qed.

  Lemma store_all_write P st a k vs : store_all P st -> Forall (P a) vs -> store_all P (arr_write st a k vs).
  Proof.
    intros H F b i v. destruct (in_or_out k (length vs) i) as [D|D]; [|rewrite cell_write_out by auto; apply H].
    destruct (Nat.eq_dec b a) as [->|N]; [|rewrite cell_write_out by auto; apply H].
    unfold cell. rewrite array_arr_write, Nat.eqb_refl. destruct (a <? length st)%nat; cbn [andb]; [|apply H].
    destruct (Nat.le_gt_cases (k + length vs) (length (array st a))) as [Hf|Hf];
      [|rewrite write_nofit by exact Hf; apply H].
    rewrite nth_error_write_in by assumption. intros E. apply nth_error_In in E.
    rewrite Forall_forall in F. auto.
  Qed.

  Lemma cells_all P st a o l c : store_all P st -> Forall (P a) (cells st (SMk a o l c)).
  Proof.
    intros H. apply Forall_forall. intros v Hv. cbn [cells] in Hv.
    assert (I : In v (array st a)).
    { rewrite <- (firstn_skipn o (array st a)). apply in_or_app. right.
      rewrite <- (firstn_skipn l (skipn o _)). apply in_or_app. left. exact Hv. }
    apply In_nth_error in I as [i E]. exact (H a i v E).
  Qed.

  Lemma nth_error_cells st a o l c i : (i < l)%nat -> nth_error (cells st (SMk a o l c)) i = cell st a (o + i).
  Proof. intros H. cbn [cells]. rewrite nth_error_firstn', nth_error_skipn' by exact H. reflexivity. Qed.

  Lemma length_cells st s : wf_slice st s -> length (cells st s) = slen s.
  Proof.
    destruct s as [|a o l c]; [reflexivity|]. intros (Ha & Hl & Hc). cbn [cells slen].
    rewrite firstn_length, skipn_length. lia.
  Qed.

  Lemma index_cell st a o l c i : (0 <= i < Z.of_nat l)%Z ->
    index st (SMk a o l c) i = match cell st a (o + Z.to_nat i) with Some v => Ok v | None => Panic end.
  Proof.
    intros H. unfold index. cbn [slen]. destruct (range_spec i (Z.of_nat l)); [|contradiction].
    rewrite nth_error_cells by lia. reflexivity.
  Qed.

  Lemma cells_arr_write st a o l c k vs :
    wf_slice st (SMk a o l c) -> (o <= k)%nat -> (k + length vs <= o + l)%nat ->
    cells (arr_write st a k vs) (SMk a o l c) = write (cells st (SMk a o l c)) (k - o) vs.
  Proof.
    intros W Hk F. pose proof (length_cells st _ W) as L. cbn [slen] in L. destruct W as (Ha & Hl & Hc).
    assert (L' : length (cells (arr_write st a k vs) (SMk a o l c)) = l).
    { cbn [cells]. rewrite firstn_length, skipn_length, array_length_arr_write. lia. }
    apply list_ext_len; [rewrite write_length; lia|]. rewrite L'. intros i Hi.
    rewrite nth_error_cells by exact Hi. destruct (in_or_out (k - o) (length vs) i) as [D|D].
    - rewrite cell_write_in, nth_error_write_in by lia. f_equal. lia.
    - rewrite cell_write_out, nth_error_write_out by lia. symmetry. apply nth_error_cells. exact Hi.
  Qed.

  Lemma index_out st s i : ~ (0 <= i < Z.of_nat (slen s))%Z -> index st s i = Panic.
  Proof. intros H. unfold index. destruct (range_spec i (Z.of_nat (slen s))); [contradiction|reflexivity]. Qed.
  Lemma index_in st s i : wf_slice st s -> (0 <= i < Z.of_nat (slen s))%Z -> exists v, index st s i = Ok v.
  Proof.
    intros W H. destruct s as [|a o l c]; [cbn in H; lia|]. cbn [slen] in H. rewrite index_cell by exact H.
    destruct W as (_ & Hl & Hc). destruct (cell st a (o + Z.to_nat i)) eqn:E; [eauto|].
    apply nth_error_None in E. lia.
  Qed.

  Lemma set_out st s i v : ~ (0 <= i < Z.of_nat (slen s))%Z -> set st s i v = Panic.
  Proof.
    intros H. destruct s as [|a o l c]; [reflexivity|]. cbn [set slen] in *.
    destruct (range_spec i (Z.of_nat l)); [contradiction|reflexivity].
  Qed.
  Lemma set_in st s i v : (0 <= i < Z.of_nat (slen s))%Z -> exists st', set st s i v = Ok st'.
  Proof.
    intros H. destruct s as [|a o l c]; [cbn in H; lia|]. cbn [set slen] in *.
    destruct (range_spec i (Z.of_nat l)); [eauto|contradiction].
  Qed.
  Lemma set_Ok st s i v st' : set st s i v = Ok st' ->
    exists a o l c, s = SMk a o l c /\ (0 <= i < Z.of_nat l)%Z /\ st' = arr_write st a (o + Z.to_nat i) [v].
  Proof.
    destruct s as [|a o l c]; [discriminate|]. cbn [set].
    destruct (range_spec i (Z.of_nat l)); [|discriminate]. intros [= <-]. eauto 8.
  Qed.

  Lemma reslice_spec s i j :
    reslice s i j = Ok (match s with
                        | SNil => SNil
                        | SMk a o l c => SMk a (o + Z.to_nat i) (Z.to_nat j - Z.to_nat i) (c - Z.to_nat i)
                        end) /\ (0 <= i <= j /\ j <= Z.of_nat (scap s))%Z
    \/ reslice s i j = Panic /\ ~ (0 <= i <= j /\ j <= Z.of_nat (scap s))%Z.
  Proof.
    destruct s as [|a o l c]; cbn [reslice scap].
    - destruct (Z.eqb_spec i 0), (Z.eqb_spec j 0); [left|right..]; (split; [reflexivity|lia]).
    - destruct (Z.leb_spec0 0 i), (Z.leb_spec0 i j), (Z.leb_spec0 j (Z.of_nat c));
        [left|right..]; (split; [reflexivity|lia]).
  Qed.
  Lemma reslice_out s i j : ~ (0 <= i <= j /\ j <= Z.of_nat (scap s))%Z -> reslice s i j = Panic.
  Proof. intros H. destruct (reslice_spec s i j) as [[_ G]|[R _]]; [contradiction|exact R]. Qed.
  Lemma reslice_Ok s i j t : reslice s i j = Ok t ->
    (0 <= i <= j /\ j <= Z.of_nat (scap s))%Z /\
    t = match s with
        | SNil => SNil
        | SMk a o l c => SMk a (o + Z.to_nat i) (Z.to_nat j - Z.to_nat i) (c - Z.to_nat i)
        end.
  Proof.
    intros R. destruct (reslice_spec s i j) as [[R' G]|[R' _]]; rewrite R' in R; [|discriminate].
    injection R as <-. auto.
  Qed.
  Lemma reslice_in s i j : (0 <= i <= j /\ j <= Z.of_nat (scap s))%Z ->
    exists t, reslice s i j = Ok t /\ slen t = (Z.to_nat j - Z.to_nat i)%nat /\ scap t = (scap s - Z.to_nat i)%nat.
  Proof.
    intros H. destruct (reslice_spec s i j) as [[R _]|[_ G]]; [|contradiction].
    eexists. split; [exact R|]. destruct s; cbn [slen scap] in *; lia.
  Qed.

  Lemma make_negative st n z : (n < 0)%Z -> make_ st n z = Panic.
  Proof. intros H. unfold make_. apply Z.ltb_lt in H. rewrite H. reflexivity. Qed.

  Lemma wf_arr_write st a k vs s : wf_slice st s -> wf_slice (arr_write st a k vs) s.
  Proof.
    destruct s as [|b o l c]; [trivial|]. cbn [wf_slice].
    rewrite length_arr_write, array_length_arr_write. auto.
  Qed.
  Lemma wf_app st x s : wf_slice st s -> wf_slice (st ++ [x]) s.
  Proof.
    destruct s as [|b o l c]; [trivial|]. intros (Hb & Hl & Hc). cbn [wf_slice].
    rewrite app_length, array_app_old by exact Hb. cbn. lia.
  Qed.
  Lemma wf_new st x l c : (l <= c)%nat -> (c <= length x)%nat -> wf_slice (st ++ [x]) (SMk (length st) 0 l c).
  Proof. intros. cbn [wf_slice]. rewrite app_length, array_app_new. cbn. lia. Qed.

  Lemma wf_reslice st s i j t : wf_slice st s -> reslice s i j = Ok t -> wf_slice st t.
  Proof.
    intros W R. apply reslice_Ok in R as [G ->]. destruct s as [|a o l c]; [exact I|].
    cbn [wf_slice scap] in *. lia.
  Qed.

  Lemma wf_set st s i v st' t : set st s i v = Ok st' -> wf_slice st t -> wf_slice st' t.
  Proof. intros E. apply set_Ok in E as (a & o & l & c & _ & _ & ->). apply wf_arr_write. Qed.

  Section Append.
    Variable zero : V.
    Variable grow : nat -> nat -> nat.

    Lemma wf_append_old st s vs t : wf_slice st t -> wf_slice (fst (append_ zero grow st s vs)) t.
    Proof.
      intros W. unfold append_. destruct (slen s + length vs <=? scap s)%nat.
      - destruct s; cbn [fst]; [exact W|apply wf_arr_write; exact W].
      - cbn [fst]. apply wf_app. exact W.
    Qed.
    Lemma wf_append_new st s vs : wf_slice st s ->
      wf_slice (fst (append_ zero grow st s vs)) (snd (append_ zero grow st s vs)).
    Proof.
      intros W. unfold append_. destruct (Nat.leb_spec (slen s + length vs) (scap s)) as [E|E].
      - destruct s as [|a o l c]; cbn [fst snd]; [exact I|]. apply wf_arr_write.
        cbn [wf_slice slen scap] in *. lia.
      - cbn [fst snd]. apply wf_new; [lia|].
        rewrite !app_length, repeat_length, length_cells by exact W. lia.
    Qed.

    (* append within capacity: same array, same offset, longer; the new values are written
       into the cells right after the old elements (and nothing else changes: cell_arr_write) *)
    Lemma append_in_place st a o l c vs : (l + length vs <= c)%nat ->
      append_ zero grow st (SMk a o l c) vs = (arr_write st a (o + l) vs, SMk a o (l + length vs) c).
    Proof. intros H. unfold append_. cbn [slen scap]. apply Nat.leb_le in H as ->. reflexivity. Qed.

    (* append beyond capacity: a new array; no existing array is touched; the new slice holds the
       old elements followed by the new values and has room for at least that many *)
    Lemma append_fresh st s vs : wf_slice st s -> (scap s < slen s + length vs)%nat ->
      exists c', (slen s + length vs <= c')%nat /\
        append_ zero grow st s vs =
          (st ++ [cells st s ++ vs ++ repeat zero (c' - (slen s + length vs))],
           SMk (length st) 0 (slen s + length vs) c') /\
        (forall b, (b < length st)%nat -> array (fst (append_ zero grow st s vs)) b = array st b).
    Proof.
      intros W H. unfold append_. apply Nat.leb_gt in H as ->. eexists. split; [|split; [reflexivity|]].
      - apply Nat.le_max_l.
      - intros b Hb. cbn [fst]. apply array_app_old. exact Hb.
    Qed.

    Lemma cells_append st s vs : wf_slice st s ->
      cells (fst (append_ zero grow st s vs)) (snd (append_ zero grow st s vs)) = cells st s ++ vs.
    Proof.
      intros W. pose proof (length_cells st s W) as L.
      unfold append_. destruct (Nat.leb_spec (slen s + length vs) (scap s)) as [E|E].
      - destruct s as [|a o l c]; cbn [fst snd slen scap] in *.
        + destruct vs; [reflexivity|cbn in E; lia].
        + rewrite cells_arr_write by (cbn [wf_slice] in *; lia).
          (* the longer window: the old elements, then what was written, and nothing after *)
          replace (o + l - o)%nat with l by lia. destruct W as (Ha & Hl & Hc). cbn [cells]. unfold write.
          rewrite firstn_length_le by (rewrite skipn_length; lia).
          rewrite Nat.leb_refl, firstn_firstn, Nat.min_l, (skipn_all2 (n := (l + length vs)%nat)), app_nil_r
            by (rewrite ?firstn_length; lia).
          reflexivity.
      - cbn [fst snd cells]. rewrite array_app_new. cbn [skipn].
        rewrite app_assoc, firstn_app, app_length, L, Nat.sub_diag, app_nil_r.
        apply firstn_all2. rewrite app_length. lia.
    Qed.
  End Append.

  (* a write through one slice is seen through another slice exactly at the position that
     denotes the same cell of the same array *)
  Lemma index_after_set_same st a o1 l1 c1 k v st' o2 l2 c2 m :
    wf_slice st (SMk a o1 l1 c1) -> set st (SMk a o1 l1 c1) k v = Ok st' ->
    (0 <= m < Z.of_nat l2)%Z -> (o2 + Z.to_nat m = o1 + Z.to_nat k)%nat ->
    index st' (SMk a o2 l2 c2) m = Ok v.
  Proof.
    intros (Ha & Hl & Hc) E Hm Ho. apply set_Ok in E as (? & ? & ? & ? & [= <- <- <- <-] & Hk & ->).
    rewrite index_cell, Ho, cell_write_in, Nat.sub_diag by (cbn [length]; lia). reflexivity.
  Qed.
  Lemma index_after_set_other st a1 o1 l1 c1 k v st' a2 o2 l2 c2 m :
    set st (SMk a1 o1 l1 c1) k v = Ok st' ->
    ~ ((0 <= m)%Z /\ a2 = a1 /\ (o2 + Z.to_nat m = o1 + Z.to_nat k)%nat) ->
    index st' (SMk a2 o2 l2 c2) m = index st (SMk a2 o2 l2 c2) m.
  Proof.
    intros E H. apply set_Ok in E as (? & ? & ? & ? & [= <- <- <- <-] & Hk & ->).
    assert (D : (0 <= m < Z.of_nat l2)%Z \/ ~ (0 <= m < Z.of_nat l2)%Z) by lia.
    destruct D as [D|D]; [|rewrite !index_out by exact D; reflexivity].
    rewrite !index_cell, cell_write_out by (cbn [length]; lia). reflexivity.
  Qed.

  (* a sub-slice and its parent: position k of s[i:j] is position i+k of s *)
  Lemma sub_write_seen_by_parent st s i j t k v st' :
    wf_slice st s -> reslice s i j = Ok t -> set st t k v = Ok st' ->
    (i + k < Z.of_nat (slen s))%Z ->
    index st' s (i + k) = Ok v /\
    (forall m, m <> (i + k)%Z -> index st' s m = index st s m).
  Proof.
    intros W R S Hk. pose proof (wf_reslice _ _ _ _ _ W R) as Wt. apply reslice_Ok in R as [G ->].
    destruct s as [|a o l c]; [apply set_Ok in S as (? & ? & ? & ? & [=] & _)|]. cbn [slen] in Hk.
    pose proof S as S'. apply set_Ok in S' as (? & ? & ? & ? & _ & Hk' & _). split.
    - apply (index_after_set_same _ _ _ _ _ _ _ _ _ _ _ _ Wt S); lia.
    - intros m Hm. apply (index_after_set_other _ _ _ _ _ _ _ _ _ _ _ _ _ S). lia.
  Qed.

  Lemma parent_write_seen_by_sub st s i j t k v st' :
    wf_slice st s -> reslice s i j = Ok t -> (0 <= k < j - i)%Z -> set st s (i + k) v = Ok st' ->
    index st' t k = Ok v /\
    (forall m, m <> k -> index st' t m = index st t m).
  Proof.
    intros W R Hk S. apply reslice_Ok in R as [G ->].
    destruct s as [|a o l c]; [apply set_Ok in S as (? & ? & ? & ? & [=] & _)|]. split.
    - apply (index_after_set_same _ _ _ _ _ _ _ _ _ _ _ _ W S); lia.
    - intros m Hm. apply (index_after_set_other _ _ _ _ _ _ _ _ _ _ _ _ _ S). lia.
  Qed.

  Lemma wf_copy_vals st dst vs t : wf_slice st t -> wf_slice (fst (copy_vals st dst vs)) t.
  Proof. intros W. destruct dst; cbn [copy_vals fst]; [exact W|apply wf_arr_write; exact W]. Qed.

  (* copy moves n = min(len(dst), number of source values) elements: the first n elements of dst
     become the first n source values (as they were BEFORE the copy, even when source and
     destination overlap), the rest of dst is untouched *)
  Lemma copy_vals_spec st dst vs : wf_slice st dst ->
    snd (copy_vals st dst vs) = Nat.min (slen dst) (length vs) /\
    cells (fst (copy_vals st dst vs)) dst =
      firstn (Nat.min (slen dst) (length vs)) vs ++ skipn (Nat.min (slen dst) (length vs)) (cells st dst).
  Proof.
    intros W. split; [destruct dst; reflexivity|]. pose proof (length_cells st dst W) as L.
    destruct dst as [|a o l c]; [reflexivity|]. cbn [copy_vals fst slen] in *.
    set (n := Nat.min l (length vs)) in *.
    assert (Ln : length (firstn n vs) = n) by (apply firstn_length_le; lia).
    rewrite cells_arr_write, Nat.sub_diag by first [exact W|rewrite ?Ln; lia].
    unfold write. rewrite Ln, L. destruct (Nat.leb_spec (0 + n) l); [reflexivity|lia].
  Qed.

  Lemma copy_spec st dst src : wf_slice st dst -> wf_slice st src ->
    snd (copy_ st dst src) = Nat.min (slen dst) (slen src) /\
    cells (fst (copy_ st dst src)) dst =
      firstn (Nat.min (slen dst) (slen src)) (cells st src) ++ skipn (Nat.min (slen dst) (slen src)) (cells st dst).
  Proof.
    intros Wd Ws. rewrite <- (length_cells st src Ws). apply copy_vals_spec. exact Wd.
  Qed.

  (* copy touches no other array *)
  Lemma copy_vals_other st dst vs b : (match dst with SNil => True | SMk a _ _ _ => b <> a end) ->
    array (fst (copy_vals st dst vs)) b = array st b.
  Proof.
    destruct dst as [|a o l c]; cbn [copy_vals fst]; [reflexivity|]. intros Hb.
    apply Nat.eqb_neq in Hb. rewrite array_arr_write, Hb. reflexivity.
  Qed.
End Facts.
