(* C18: renumbering slots keeps blocks closed; a chunk whose slots are renumbered runs the same on a shared slot
   array [exec_shift]; the chunks run one after the other against the assembled code run once [run_chunks], through
   exec_shift and C18_seq.exec_ctx.  [exec_seq], two closed blocks in sequence, is stated for Props/C18.v alone. *)
From Coq Require Import ZArith List String Ascii Bool Lia.
From GV Require Import GoSpec.GoPrim Gen.ValueOps_gen Gen.Tables_gen Model.VM Model.Incr Proofs.VM_step Proofs.C18_step Proofs.C18_seq Proofs.C18_slots.
Import ListNotations.
Open Scope Z_scope.

Lemma forallb_ext' : forall {A} (f g : A -> bool) l, (forall x, f x = g x) -> forallb f l = forallb g l.
Proof. intros A f g l H. induction l as [|x l IH]; [reflexivity|]. cbn [forallb]. rewrite H, IH. reflexivity. Qed.

Lemma icode_shift : forall b i, icode (shift_instr b i) = icode i.
Proof. reflexivity. Qed.
Lemma iC_shift : forall b i, iC (shift_instr b i) = iC i.
Proof. reflexivity. Qed.

(* the scan of a block (which positions are top-level, where it ends) sees opcodes and FUNC lengths only *)
Lemma shift_scan : forall b c k,
  List.length (shift_code b k c) = List.length c /\ tops k (shift_code b k c) = tops k c /\
  final_skip k (shift_code b k c) = final_skip k c.
Proof.
  induction c as [|i r IH]; intros k; [auto|].
  destruct k; cbn [shift_code]; [destruct (icode i =? c_Func) eqn:E|];
    cbn [List.length tops final_skip icode shift_instr]; rewrite ?E.
  - destruct (IH (Z.to_nat (func_len i))) as (-> & -> & ->); auto.
  - destruct (IH O) as (-> & -> & ->); auto.
  - destruct (IH k) as (-> & -> & ->); auto.
Qed.
Lemma shift_code_length : forall b c k, List.length (shift_code b k c) = List.length c.
Proof. intros. apply shift_scan. Qed.
Lemma tops_shift : forall b c k, tops k (shift_code b k c) = tops k c.
Proof. intros. apply shift_scan. Qed.
Lemma final_skip_shift : forall b c k, final_skip k (shift_code b k c) = final_skip k c.
Proof. intros. apply shift_scan. Qed.

Lemma jumps_shift : forall b i, jumps (shift_instr b i) = jumps i.
Proof.
  intros b i. unfold jumps. rewrite icode_shift. unfold shift_instr. cbn [iA iB iC icode].
  destruct ((icode i =? c_Jump) || (icode i =? c_JumpFalse) || (icode i =? c_JumpTrue) || (icode i =? c_And) || (icode i =? c_Or)) eqn:E1.
  - assert (Hs : slotA (icode i) = false).
    { repeat (apply orb_true_iff in E1; destruct E1 as [E1|E1]); apply Z.eqb_eq in E1; rewrite E1; reflexivity. }
    rewrite Hs, Z.add_0_r. reflexivity.
  - destruct (icode i =? c_Range) eqn:E2.
    + apply Z.eqb_eq in E2. rewrite E2. change (slotB c_Range) with false. change (c_Range =? c_Iter) with false.
      cbv iota. rewrite Z.add_0_r. reflexivity.
    + destruct (icode i =? c_Iter); reflexivity.
Qed.

Lemma shift_instr_func : forall b i, icode i = c_Func -> shift_instr b i = i.
Proof.
  intros b i E. unfold shift_instr. rewrite E. change (slotA c_Func) with false. change (slotB c_Func) with false.
  change (c_Func =? c_Iter) with false. cbv iota. rewrite !Z.add_0_r, <- E. destruct i; reflexivity.
Qed.

Lemma shift_nth : forall b c k p,
  nth_error (shift_code b k c) p =
  match nth_error c p with
  | None => None
  | Some i => Some (if nth p (tops k c) false then shift_instr b i else i)
  end.
Proof.
  induction c as [|i r IH]; intros k p; [destruct p; reflexivity|].
  destruct k; cbn [shift_code tops].
  - destruct (icode i =? c_Func) eqn:E.
    + destruct p; cbn [nth_error nth]; [rewrite shift_instr_func by (apply Z.eqb_eq; exact E); reflexivity|apply IH].
    + destruct p; cbn [nth_error nth]; [reflexivity|apply IH].
  - destruct p; cbn [nth_error nth]; [reflexivity|apply IH].
Qed.

Lemma top_or_end_shift : forall b c p, top_or_end (shift_code b O c) p = top_or_end c p.
Proof. intros. unfold top_or_end, zlen. rewrite shift_code_length, tops_shift. reflexivity. Qed.

Lemma closedb_shift : forall b c, closedb (shift_code b O c) = closedb c.
Proof.
  intros b c. unfold closedb, completeb. rewrite final_skip_shift, shift_code_length. f_equal.
  apply forallb_ext'. intro pc. unfold closed_at. rewrite shift_nth, tops_shift.
  destruct (nth_error c pc) as [i|]; [|reflexivity].
  destruct (nth pc (tops 0 c) false) eqn:Et; cbn [negb]; [|reflexivity].
  rewrite icode_shift. f_equal.
  destruct (icode i =? c_Func) eqn:E.
  - rewrite shift_instr_func by (apply Z.eqb_eq; exact E). rewrite top_or_end_shift. reflexivity.
  - rewrite top_or_end_shift, jumps_shift. f_equal. apply forallb_ext'. intro d. apply top_or_end_shift.
Qed.

(* the body of a top-level FUNC is not renumbered *)
Lemma shift_code_skip : forall b c k, firstn k (shift_code b k c) = firstn k c.
Proof. induction c as [|i r IH]; intros [|k]; try reflexivity. cbn [shift_code firstn]. now rewrite IH. Qed.

Lemma shift_body : forall b c k pc i, nth pc (tops k c) false = true -> nth_error c pc = Some i -> icode i = c_Func ->
  firstn (Z.to_nat (func_len i)) (skipn (S pc) (shift_code b k c)) = firstn (Z.to_nat (func_len i)) (skipn (S pc) c).
Proof.
  induction c as [|x r IH]; intros k pc i Ht Hn Hf; [destruct pc; discriminate|].
  destruct pc as [|pc]; cbn [nth_error] in Hn.
  - injection Hn as ->. destruct k; [|discriminate]. cbn [shift_code]. rewrite Hf, Z.eqb_refl. apply shift_code_skip.
  - destruct k; cbn [shift_code tops nth] in *; [destruct (icode x =? c_Func)|]; cbn [skipn]; eapply IH; eauto.
Qed.

Lemma slots_ok_at : forall n c k pc i, slots_okb_from k n c = true ->
  nth pc (tops k c) false = true -> nth_error c pc = Some i -> slots_in i n.
Proof.
  intros n. induction c as [|x r IH]; intros k pc i Hs Ht Hn; [destruct pc; discriminate|].
  destruct pc as [|pc]; cbn [nth_error] in Hn.
  - injection Hn as ->. destruct k; [|discriminate]. cbn [slots_okb_from] in Hs. unfold slots_in.
    destruct (Z.eqb_spec (icode i) c_Func) as [E|E].
    + unfold slot_uses. rewrite E. split; [reflexivity|discriminate].
    + rewrite !andb_true_iff in Hs. destruct Hs as [[H1 H2] _]. split; [exact H1|].
      intro EI. rewrite EI, andb_true_iff, Z.leb_le, Z.ltb_lt in H2. exact H2.
  - destruct k as [|k]; cbn [tops nth slots_okb_from] in *.
    + destruct (icode x =? c_Func); [eapply IH; eauto|].
      apply andb_true_iff in Hs. destruct Hs as [_ Hs]. eapply IH; eauto.
    + eapply IH; eauto.
Qed.

Lemma top_or_end_0 : forall c, top_or_end c 0 = true.
Proof. intros [|i r]; reflexivity. Qed.

Lemma chunk_okb_spec : forall c n, chunk_okb (c, n) = true -> closedb c = true /\ slots_okb c n = true /\ 0 <= n.
Proof.
  intros c n H. unfold chunk_okb in H. cbn [fst snd] in H. apply andb_true_iff in H. destruct H as [H1 H2].
  split; [exact H1|split; [exact H2|]]. unfold slots_okb in H2. apply andb_true_iff in H2. destruct H2 as [H2 _].
  apply Z.leb_le in H2. exact H2.
Qed.

Lemma total_slots_nonneg : forall cs, Forall (fun ch => chunk_okb ch = true) cs -> 0 <= total_slots cs.
Proof.
  induction 1 as [|[c n] r H _ IH]; cbn [total_slots]; [lia|]. apply chunk_okb_spec in H. lia.
Qed.

Section Run.
  Variable grow : Z -> Z -> Z.
  Variable ext_get : st -> value -> value -> option (res value).
  Variable ext_set : st -> value -> value -> value -> option (res st).
  Variable ext_len : st -> value -> option Z.
  Variable ext_getattr : st -> value -> Z -> option (res (value * st)).
  Variable ext_setattr : st -> value -> Z -> value -> option (res st).
  Notation exec := (VM.exec grow ext_get ext_set ext_len ext_getattr ext_setattr).
  Notation run := (VM.run grow ext_get ext_set ext_len ext_getattr ext_setattr).
  Notation run_seq := (Incr.run_seq grow ext_get ext_set ext_len ext_getattr ext_setattr).
  Notation exec_ctx := (exec_ctx grow ext_get ext_set ext_len ext_getattr ext_setattr).
  Notation exec_S := (exec_S grow ext_get ext_set ext_len ext_getattr ext_setattr).
  Notation exec_turn := (exec_turn grow ext_get ext_set ext_len ext_getattr ext_setattr).
  Notation turn := (turn grow ext_get ext_set ext_len ext_getattr ext_setattr).
  Notation lifts := (lifts grow ext_get ext_set ext_len ext_getattr ext_setattr).
  Notation step1 := (VM.step1 grow ext_get ext_set ext_len ext_getattr ext_setattr).
  Notation call_fn := (VM.call_fn grow ext_get ext_set ext_len ext_getattr ext_setattr).
  Notation step1_slots := (step1_slots grow ext_get ext_set ext_len ext_getattr ext_setattr).
  Notation closed_turn := (closed_turn grow ext_get ext_set ext_len ext_getattr ext_setattr).
  Notation step1_codes := (step1_codes grow ext_get ext_set ext_len ext_getattr ext_setattr).

  Lemma exec_at_end : forall C sl ops s, exec 1 C (zlen C) sl ops s = RDone sl ops s.
  Proof.
    intros. rewrite exec_S. destruct (znth C (zlen C)) eqn:E; [apply znth_Some in E; lia|reflexivity].
  Qed.

  Lemma lifts_end : forall C f pc sl ops s r, lifts C (zlen C) f pc sl ops s r -> r <> RFuel ->
    exists f', exec f' C pc sl ops s = r.
  Proof.
    intros C f pc sl ops s r H Hr. destruct r; try (exists f; exact H); [|congruence].
    exists (f + 1)%nat. apply H; [apply exec_at_end|discriminate].
  Qed.

  Theorem exec_seq : forall c1 c2, closedb c1 = true -> closedb c2 = true ->
    forall f1 sl ops s,
    match exec f1 c1 0 sl ops s with
    | RFuel => True
    | RDone sl1 ops1 s1 =>
        forall f2 r, exec f2 c2 0 sl1 ops1 s1 = r -> r <> RFuel ->
        exists f', exec f' (c1 ++ c2) 0 sl ops s = r
    | r => exec f1 (c1 ++ c2) 0 sl ops s = r
    end.
  Proof.
    intros c1 c2 H1 H2 f1 sl ops s.
    assert (Hc : lifts (c1 ++ c2) (zlen c1) f1 0 sl ops s (exec f1 c1 0 sl ops s))
      by exact (exec_ctx c1 H1 [] c2 f1 0 sl ops s (top_or_end_0 c1)).
    destruct (exec f1 c1 0 sl ops s) as [sl1 ops1 s1| | | |]; try exact Hc.
    intros f2 r E2 Hr.
    pose proof (exec_ctx c2 H2 c1 [] f2 0 sl1 ops1 s1 (top_or_end_0 c2)) as Hd.
    rewrite app_nil_r, Z.add_0_r, <- zlen_app, E2 in Hd.
    destruct (lifts_end _ _ _ _ _ _ _ Hd Hr) as [f' Hf']. exists (f1 + f')%nat. now apply Hc.
  Qed.

  (* [map_sres] changes the slots inside an SRet, which [turn] hands on as RDone: hence the exclusion *)
  Lemma turn_map : forall F f i i' r, ipos i' = ipos i ->
    match turn f i r with
    | Go d sl ops s => turn f i' (map_sres F r) = Go d (F sl) ops s
    | Stop x => (forall a b c, x <> RDone a b c) -> turn f i' (map_sres F r) = Stop x
    end.
  Proof.
    intros F f i i' r Hp. destruct r; cbn [map_sres C18_step.turn]; rewrite ?Hp; try reflexivity.
    - destruct (call_fn f pack fa xArgs xRets (ipos i) ops s); reflexivity.
    - intro H. now contradiction (H slots ops s).
  Qed.

  (* a block on its own slots = the renumbered block on a shared slot array *)
  Theorem exec_shift : forall c n, closedb c = true -> slots_okb c n = true ->
    forall pre post, zlen pre + n < slot_limit ->
    forall f pc sl ops s, top_or_end c pc = true -> zlen sl = n ->
      exec f (shift_code (zlen pre) O c) pc (pre ++ sl ++ post)%list ops s =
        map_slots (fun x => (pre ++ x ++ post)%list) (exec f c pc sl ops s) /\
      (forall sl' ops' s', exec f c pc sl ops s = RDone sl' ops' s' -> zlen sl' = n).
  Proof.
    intros c n Hc Hs pre post Hlim. set (b := zlen pre). set (C' := shift_code b O c).
    set (F := fun x : list value => (pre ++ x ++ post)%list).
    unfold slots_okb in Hs. apply andb_true_iff in Hs. destruct Hs as [_ Hs].
    induction f as [|f IH]; intros pc sl ops s Ht Hl; [split; [reflexivity|discriminate]|].
    change (pre ++ sl ++ post)%list with (F sl). rewrite !exec_turn.
    pose proof (znth_dom c C' pc (eq_sym (shift_code_length b c O))) as Hd.
    destruct (znth c pc) as [i|] eqn:Ez.
    - pose proof (znth_Some _ _ _ Ez) as Hp.
      pose proof (proj2 (top_or_end_spec _ _ Ht) (proj2 Hp)) as Htop.
      pose proof Ez as En. rewrite znth_nth_error in En by lia.
      assert (Hz' : znth C' pc = Some (shift_instr b i)).
      { rewrite znth_nth_error by lia. unfold C'. rewrite shift_nth, En, Htop. reflexivity. }
      assert (Hstep : step1 C' pc (shift_instr b i) (F sl) ops s = map_sres F (step1 c pc i sl ops s)).
      { rewrite (step1_codes C' c pc pc).
        - apply step1_slots; [rewrite Hl; exact (slots_ok_at n c O _ i Hs Htop En)|lia].
        - rewrite icode_shift. intro Ef. rewrite (shift_instr_func b i Ef).
          replace (Z.to_nat (pc + 1)) with (S (Z.to_nat pc)) by lia. apply shift_body; assumption. }
      rewrite Hz', Hstep.
      pose proof (closed_turn c Hc f c pc i sl ops s Ht Ez) as Hn.
      pose proof (turn_map F f i (shift_instr b i) (step1 c pc i sl ops s) eq_refl) as Hm.
      destruct (turn f i (step1 c pc i sl ops s)) as [d sl' ops' s'|r].
      + rewrite Hm. apply IH; [apply Hn|unfold zlen in *; destruct Hn; lia].
      + rewrite (Hm Hn). split; [destruct r; try reflexivity|intros sl' ops' s' ->]; now contradiction (Hn _ _ _ eq_refl).
    - destruct (znth C' pc); [contradiction|]. split; [reflexivity|]. intros sl' ops' s' E. injection E as <- _ _. exact Hl.
  Qed.

  (* a chunk run on its own: what the code around its renumbered copy does from its start, on shared slots *)
  Lemma chunk_ctx : forall c n, chunk_okb (c, n) = true -> forall preC postC preS postS fuel s,
    zlen preS + n < slot_limit ->
    lifts (preC ++ shift_code (zlen preS) O c ++ postC) (zlen (preC ++ shift_code (zlen preS) O c)) fuel (zlen preC)
          (preS ++ repeat nilV (Z.to_nat n) ++ postS) [] s
          (map_slots (fun x => (preS ++ x ++ postS)%list) (run fuel c n s)) /\
    (forall sl ops s', run fuel c n s = RDone sl ops s' -> zlen sl = n).
  Proof.
    intros c n Hck preC postC preS postS fuel s Hlim. destruct (chunk_okb_spec _ _ Hck) as [Hcl [Hsl Hn]].
    destruct (exec_shift c n Hcl Hsl preS postS Hlim fuel 0 (repeat nilV (Z.to_nat n)) [] s
                (top_or_end_0 c) ltac:(rewrite zlen_repeat; lia)) as [Heq Hlen].
    split; [|exact Hlen]. rewrite <- (closedb_shift (zlen preS)) in Hcl.
    pose proof (exec_ctx _ Hcl preC postC fuel 0 (preS ++ repeat nilV (Z.to_nat n) ++ postS)%list [] s (top_or_end_0 _)) as H.
    rewrite Z.add_0_r, <- zlen_app, Heq in H. exact H.
  Qed.

  Lemma same_outcome_nofuel : forall r w, observable r -> same_outcome r w -> w <> RFuel.
  Proof. intros r w Ho Hs. destruct r; cbn in *; try contradiction; [destruct Hs as [sl ->]|subst w]; discriminate. Qed.

  Lemma run_seq_cons : forall fuel c n rest s, run_seq fuel ((c, n) :: rest) s =
    match run fuel c n s with
    | RDone sl ops s' =>
        match rest, ops with
        | [], _ => RDone sl ops s'
        | _, [] => run_seq fuel rest s'
        | _, _ => RStuck "operands left by a chunk that is not the last"
        end
    | other => other
    end.
  Proof. intros. cbn [Incr.run_seq]. destruct rest; [destruct (run fuel c n s)|]; reflexivity. Qed.

  (* [run_chunks] generalised over the code already assembled (preC) and the slots already allocated (preS),
     because [assemble] threads the slot base *)
  Lemma run_chunks_ctx : forall cs, Forall (fun ch => chunk_okb ch = true) cs -> forall preC preS fuel s r,
    zlen preS + total_slots cs < slot_limit ->
    run_seq fuel cs s = r -> observable r ->
    exists fuel', same_outcome r
      (exec fuel' (preC ++ assemble (zlen preS) cs) (zlen preC)
            (preS ++ repeat nilV (Z.to_nat (total_slots cs)))%list [] s).
  Proof.
    induction cs as [|[c n] rest IH]; intros Hok preC preS fuel s r Hlim Hr Hobs.
    - subst r. exists 1%nat. cbn [assemble total_slots]. rewrite app_nil_r, exec_at_end. eexists; reflexivity.
    - inversion Hok as [|x l Hck Hrest]; subst x l.
      pose proof (total_slots_nonneg _ Hrest) as Ht. pose proof (proj2 (proj2 (chunk_okb_spec _ _ Hck))) as Hn.
      cbn [total_slots assemble] in *. rewrite Z2Nat.inj_add, repeat_app by lia.
      destruct (chunk_ctx c n Hck preC (assemble (zlen preS + n) rest) preS (repeat nilV (Z.to_nat (total_slots rest)))
                  fuel s ltac:(lia)) as [Hctx Hlen].
      rewrite run_seq_cons in Hr.
      destruct (run fuel c n s) as [sl1 ops1 s1|msg p s1| | |]; cbn [map_slots C18_seq.lifts] in Hctx;
        try (subst r; contradiction).
      + specialize (Hlen _ _ _ eq_refl). destruct rest as [|ch2 rest'].
        * (* the last chunk *)
          subst r. exists (fuel + 1)%nat. eexists. apply Hctx; [|discriminate].
          cbn [assemble]. rewrite app_nil_r. apply exec_at_end.
        * destruct ops1; [|subst r; contradiction].
          destruct (IH Hrest (preC ++ shift_code (zlen preS) O c)%list (preS ++ sl1)%list fuel s1 r
                      ltac:(rewrite zlen_app; lia) Hr Hobs) as [fuel2 H2].
          rewrite (zlen_app preS), Hlen, <- !app_assoc in H2.
          exists (fuel + fuel2)%nat. rewrite (Hctx fuel2 _ eq_refl (same_outcome_nofuel _ _ Hobs H2)). exact H2.
      + subst r. exists fuel. exact Hctx.
  Qed.

  Theorem run_chunks : forall cs fuel s r, Forall (fun ch => chunk_okb ch = true) cs -> total_slots cs < slot_limit ->
    run_seq fuel cs s = r -> observable r ->
    exists fuel', same_outcome r (run fuel' (assemble 0 cs) (total_slots cs) s).
  Proof. intros cs fuel s r Hok Hlim. exact (run_chunks_ctx cs Hok [] [] fuel s r Hlim). Qed.
End Run.
