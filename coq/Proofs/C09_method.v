(* C09, bound methods.  Model/VM.v has no struct objects (GETATTR / FASTCALLATTR go through
   the [ext_getattr] oracle), so receiver binding is stated over Model/Call.v, the stack-
   discipline model of value.go newMethod / vm.go mkFunc, call, callReady that property C19
   ties to the implementation: a method value [newMethod obj f] created when the attribute was
   read (structT.GetIndex) carries [obj]; calling it later, on any stack, runs the method's
   body with [obj] as parameter 0 followed by the arguments, each assigned its declared type. *)
From Coq Require Import ZArith List Bool Lia.
From GV Require Import GoSpec.GoPrim Gen.ValueOps_gen Model.Call Proofs.C19_adapter.
Import ListNotations.
Open Scope Z_scope.

Section Method.
  Variables (nargs rets : Z) (atys rtys : list Z) (code : list cell -> cres (list cell)).
  Hypothesis Hn : 1 <= nargs.
  Hypothesis Hcode : forall a outs, code a = Good outs -> slen outs = rets.

  Let f := script_fn nargs rets atys rtys code.

  Lemma script_args : Args f = nargs /\ Variadic f = false.
  Proof.
    unfold f, script_fn, newFunc. cbn [Args Variadic].
    destruct (nargs <? 0) eqn:E; [lia|]. auto.
  Qed.

  (* the receiver captured at creation time arrives as parameter 0, the arguments after it,
     all assigned the declared parameter types; the results, assigned the declared result
     types, land on the untouched [lo] *)
  Lemma method_script obj lo args xRets :
    slen args = nargs - 1 -> 0 <= xRets ->
    call (lo ++ args) (newMethod obj f) (slen args) xRets =
      (outs <~ code (assign_zip atys (obj :: args)) ;; deliver lo (assign_zip rtys outs) xRets).
  Proof.
    intros Ha Hx. destruct script_args as [HA HV].
    rewrite method_call, call_fixed by (rewrite ?HA; auto; congruence).
    replace (slen args + 1) with (Args f) by lia.
    rewrite (callReady_frame f _ _ lo ([obj] ++ args) xRets eq_refl
               (script_frame nargs rets atys rtys code ltac:(lia) Hcode)) by len.
    cbn [app]. now destruct (code (assign_zip atys (obj :: args))).
  Qed.

  (* a wrong number of arguments for a method: "incorrect args", the body is not run *)
  Lemma method_script_wrong obj lo args xRets :
    slen args <> nargs - 1 ->
    call (lo ++ args) (newMethod obj f) (slen args) xRets = Fail EIncorrectArgs.
  Proof.
    intros Ha. destruct script_args as [HA HV].
    rewrite method_call, call_fixed by (rewrite ?HA; auto; congruence).
    apply callReady_args. lia.
  Qed.
End Method.
