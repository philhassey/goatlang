(* C09: calls deliver arguments and results in order and with their declared types.
   Theorems about [call_fn] of Model/VM.v (the transcription of vm.go call / callReady /
   mkFunc): parameter passing, parameter typing, variadic packing / spread, result
   delivery, argument- and result-count errors.  [call_fn_pre] cuts call_fn in three: what happens before the
   body ([call_pre], no fuel, no oracle), the body's exec, and what is made of its outcome ([finish]); C09_frame,
   C07_sound, C20_bt and C18_step go through it.  The operand stack of the model has
   its TOP at the HEAD: a caller that pushed [args] (first argument first) on top of
   [lo] holds [rev args ++ lo]. *)
From Coq Require Import ZArith String List Bool Lia.
From GV Require Import GoSpec.GoPrim Gen.ValueOps_gen Gen.Tables_gen Model.VM Proofs.C04_ops Proofs.VM_step.
Import ListNotations.
Open Scope Z_scope.

(* v_i.assign(t_i), position by position (mkFunc's two loops) *)
Definition assign_zip (vs : list value) (ts : list Z) : list value :=
  map (fun p => Value_assign (fst p) (snd p)) (combine vs ts).

(* the callee's slots on entry: the typed parameters, then nil cells (mkFunc: append(stack, empty...)) *)
Definition entry_slots (args : list value) (types : list Z) (nslots nargs : Z) : list value :=
  (assign_zip args types ++ repeat nilV (Z.to_nat (nslots - nargs)))%list.

(* mkFunc's result loop: the TOP nrets of the values the body left are assigned the declared result types *)
Definition typed_results (nargs nrets : Z) (types : list Z) (results : list value) : list value :=
  let n := zlen results in
  (firstn (Z.to_nat (n - nrets)) results ++
   assign_zip (skipn (Z.to_nat (n - nrets)) results) (skipn (Z.to_nat nargs) types))%list.

(* what callReady + mkFunc make of the body's outcome; [lo] = the caller's operands below the arguments *)
Definition finish (nargs nrets xRets pos : Z) (types : list Z) (lo : list value) (r : result) : cres :=
  match r with
  | RDone _ rops s2 =>
      let results := rev rops in
      if zlen results <? nrets then CErr (RFail "missing return" pos (pop_bt s2))
      else if zlen results <? xRets then CErr (RFail "incorrect returns" pos (pop_bt s2))
      else COk (rev (firstn (Z.to_nat xRets) (typed_results nargs nrets types results)) ++ lo)%list (pop_bt s2)
  | r => CErr r
  end.

(* a function object as codeFunc builds it: one type per parameter and per result *)
Definition wf_func (nargs nrets : Z) (types : list Z) : Prop :=
  0 <= nargs /\ 0 <= nrets /\ zlen types = nargs + nrets.

Lemma popn_app_gen (ys lo acc : list value) :
  popn (length ys) (ys ++ lo) acc = Some ((rev ys ++ acc)%list, lo).
Proof.
  revert acc. induction ys as [|y ys IH]; intros acc; cbn [length popn app rev]; [reflexivity|].
  rewrite IH. now rewrite <- app_assoc.
Qed.

Lemma popn_args (args lo : list value) :
  popn (length args) (rev args ++ lo) [] = Some (args, lo).
Proof.
  rewrite <- (rev_length args). rewrite popn_app_gen. now rewrite rev_involutive, app_nil_r.
Qed.

Lemma popn_spec n : forall ops acc,
  match popn n ops acc with
  | Some (a, rest) => exists top, ops = (top ++ rest)%list /\ a = (rev top ++ acc)%list /\ length top = n
  | None => (length ops < n)%nat
  end.
Proof.
  induction n as [|n IH]; intros ops acc; cbn [popn]; [now exists []|].
  destruct ops as [|x r]; [cbn; lia|]. specialize (IH r (x :: acc)).
  destruct (popn n r (x :: acc)) as [[a rest]|]; [|cbn [length]; lia].
  destruct IH as (top & -> & -> & <-). exists (x :: top). cbn [rev app length]. now rewrite <- app_assoc.
Qed.

Lemma popn_frame n (ops acc a rest lo : list value) :
  popn n ops acc = Some (a, rest) -> popn n (ops ++ lo) acc = Some (a, (rest ++ lo)%list).
Proof.
  intros E. pose proof (popn_spec n ops acc) as H. rewrite E in H. destruct H as (top & -> & -> & <-).
  rewrite <- app_assoc. apply popn_app_gen.
Qed.

Lemma popn_len n (ops acc a rest : list value) :
  popn n ops acc = Some (a, rest) -> (length a = n + length acc)%nat /\ (length ops = n + length rest)%nat.
Proof.
  intros E. pose proof (popn_spec n ops acc) as H. rewrite E in H. destruct H as (top & -> & -> & <-).
  rewrite !app_length, rev_length. lia.
Qed.

Lemma skipn_add {A} (l : list A) : forall a b, skipn b (skipn a l) = skipn (a + b) l.
Proof.
  induction l as [|x l IH]; intros a b.
  - now rewrite !skipn_nil.
  - destruct a; cbn [skipn Nat.add]; [reflexivity|apply IH].
Qed.

Lemma popn_pops n (ops : list value) :
  0 <= n <= zlen ops -> exists a, popn (Z.to_nat n) ops [] = Some (a, skipn (Z.to_nat n) ops) /\ zlen a = n.
Proof.
  intros H. pose proof (popn_spec (Z.to_nat n) ops []) as P.
  destruct (popn (Z.to_nat n) ops []) as [[a rest]|]; [|unfold zlen in H; lia].
  destruct P as (top & -> & -> & L). exists (rev top ++ [])%list.
  rewrite <- L, skipn_app, skipn_all, Nat.sub_diag. split; [reflexivity|].
  rewrite app_nil_r, zlen_rev. unfold zlen. lia.
Qed.

Lemma zlen_assign_zip vs ts : zlen vs <= zlen ts -> zlen (assign_zip vs ts) = zlen vs.
Proof. unfold assign_zip, zlen. rewrite map_length, combine_length. lia. Qed.

Lemma nth_assign_zip vs ts i a t :
  nth_error vs i = Some a -> nth_error ts i = Some t ->
  nth_error (assign_zip vs ts) i = Some (Value_assign a t).
Proof.
  unfold assign_zip. revert ts i. induction vs as [|v vs IH]; intros ts i; destruct i; cbn; try discriminate.
  - destruct ts; cbn; [discriminate|]. intros E1 E2. inversion E1; inversion E2. reflexivity.
  - destruct ts; cbn; [discriminate|]. apply IH.
Qed.

Lemma hget_alloc s o a x : hget s a = Some x -> hget (fst (alloc s o)) a = Some x.
Proof.
  unfold hget, alloc, znth. cbn [fst heap]. destruct (a <? 0); [discriminate|].
  intros E. rewrite nth_error_app1; [assumption|]. apply nth_error_Some. congruence.
Qed.

Lemma hget_new_slice s e cells a x :
  hget s a = Some x -> hget (fst (new_slice s e cells)) a = Some x.
Proof.
  intros E. unfold new_slice.
  destruct (alloc s (HArr cells)) as [s1 arr] eqn:A1.
  destruct (alloc s1 (HSlice e arr 0 (zlen cells) (zlen cells))) as [s2 h] eqn:A2. cbn [fst].
  change s2 with (fst (s2, h)). rewrite <- A2. apply hget_alloc.
  change s1 with (fst (s1, arr)). rewrite <- A1. now apply hget_alloc.
Qed.

Lemma hget_variadic_arg s vtype n vargs a x :
  hget s a = Some x -> hget (fst (variadic_arg s vtype n vargs)) a = Some x.
Proof.
  intros E. unfold variadic_arg. destruct (n =? 0); [exact E|]. now apply hget_new_slice.
Qed.

(* the body left fewer values than the caller asks for: "incorrect returns" *)
Lemma finish_few nargs nrets xRets pos types lo sl rops s2 :
  nrets <= zlen rops -> zlen rops < xRets ->
  finish nargs nrets xRets pos types lo (RDone sl rops s2) = CErr (RFail "incorrect returns" pos (pop_bt s2)).
Proof.
  intros H1 H2. unfold finish. rewrite zlen_rev.
  destruct (zlen rops <? nrets) eqn:E1; [lia|]. destruct (zlen rops <? xRets) eqn:E2; [reflexivity|lia].
Qed.

(* only the body that returned: any other outcome r is handed up, [finish .. r] computes to [CErr r] once r
   is a constructor *)
Lemma finish_done nargs nrets xRets pos types lo sl rops s2 :
  match finish nargs nrets xRets pos types lo (RDone sl rops s2) with
  | COk _ s' => s' = pop_bt s2
  | CErr (RFail _ p s') => p = pos /\ s' = pop_bt s2
  | CErr _ => False
  end.
Proof.
  unfold finish. destruct (zlen (rev rops) <? nrets); [now split|]. destruct (zlen (rev rops) <? xRets); [now split|reflexivity].
Qed.

Lemma finish_not_done nargs nrets xRets pos types lo r sl o s' :
  finish nargs nrets xRets pos types lo r <> CErr (RDone sl o s').
Proof.
  destruct r; try discriminate. intros E.
  pose proof (finish_done nargs nrets xRets pos types lo slots ops s) as H. now rewrite E in H.
Qed.

Lemma zlen_typed_results nargs nrets types results :
  wf_func nargs nrets types -> nrets <= zlen results ->
  zlen (typed_results nargs nrets types results) = zlen results.
Proof.
  intros (H0 & H1 & HT) Hn. unfold typed_results. rewrite zlen_app.
  pose proof (zlen_nonneg results).
  rewrite zlen_firstn, zlen_assign_zip; rewrite !zlen_skipn; lia.
Qed.

(* a success is never misaligned: exactly xRets values on top of the untouched [lo] *)
Lemma finish_aligned nargs nrets xRets pos types lo r ops' s' :
  wf_func nargs nrets types -> 0 <= xRets ->
  finish nargs nrets xRets pos types lo r = COk ops' s' ->
  exists res, ops' = (res ++ lo)%list /\ zlen res = xRets.
Proof.
  intros W Hx. unfold finish. destruct r; try discriminate.
  destruct (zlen (rev ops) <? nrets) eqn:E1; [discriminate|].
  destruct (zlen (rev ops) <? xRets) eqn:E2; [discriminate|].
  intros E. inversion E. eexists. split; [reflexivity|].
  rewrite zlen_rev, zlen_firstn, zlen_typed_results by (auto; lia). lia.
Qed.

(* the body left exactly the declared number of results: every one is assigned its declared type *)
Lemma typed_results_exact nargs nrets types results :
  zlen results = nrets ->
  typed_results nargs nrets types results = assign_zip results (skipn (Z.to_nat nargs) types).
Proof.
  intros H. unfold typed_results. rewrite H, Z.sub_diag. reflexivity.
Qed.

Lemma zlen_entry_slots args types nslots nargs :
  zlen args = nargs -> nargs <= zlen types -> nargs <= nslots -> zlen (entry_slots args types nslots nargs) = nslots.
Proof. intros Ha Ht Hs. unfold entry_slots. rewrite zlen_app, zlen_assign_zip, zlen_repeat; lia. Qed.

(* slot i of the callee holds argument i assigned to declared type i ... *)
Lemma entry_slot args types nslots nargs i a t :
  nth_error args i = Some a -> nth_error types i = Some t ->
  nth_error (entry_slots args types nslots nargs) i = Some (Value_assign a t).
Proof.
  intros Ha Ht. unfold entry_slots. rewrite nth_error_app1.
  - now apply nth_assign_zip.
  - apply nth_error_Some. erewrite nth_assign_zip by eassumption. discriminate.
Qed.

(* ... and the slots after the parameters are nil *)
Lemma entry_slot_local args types nslots nargs i :
  zlen args = nargs -> nargs <= zlen types -> nargs <= i < nslots ->
  nth_error (entry_slots args types nslots nargs) (Z.to_nat i) = Some nilV.
Proof.
  intros Ha Ht Hi. unfold entry_slots.
  assert (L : length (assign_zip args types) = Z.to_nat nargs).
  { pose proof (zlen_assign_zip args types ltac:(lia)) as Z. unfold zlen in *. lia. }
  rewrite nth_error_app2 by lia. rewrite L.
  apply nth_error_repeat. lia.
Qed.

(* what assign does to the three kinds of argument (C04) *)
Lemma assign_cases a t :
  (forall ty c, a = Untyped c -> t = tag_of ty -> typed ty = true -> in_range ty c = true ->
     Value_assign a t = V ty c) /\
  (forall c, a = Untyped c -> t = TypeFloat64 -> Value_assign a t = F (float_of_Z c)) /\
  (a = nilV -> nillableMin <= t -> Value_assign a t = mkValue t (Zn 0) PNone) /\
  (vt a <> untypedInt -> vt a <> TypeNil -> Value_assign a t = a).
Proof.
  repeat split.
  - intros ty c -> -> Ht Hc. now apply assign_untyped.
  - intros c -> ->. apply assign_untyped_float.
  - intros -> Ht. unfold nilV. change 0 with TypeNil at 1. rewrite assign_nil.
    destruct (nillableMin <=? t) eqn:E; [|lia]. now rewrite orb_true_r.
  - apply assign_keeps.
Qed.

(* a call of a script function about to run its body *)
Record entry := mkEntry {
  e_nargs : Z; e_nrets : Z; e_nslots : Z; e_types : list Z; e_body : list instr;   (* of the function object *)
  e_args : list value;     (* the arguments, first to last, surplus ones of a variadic call packed into one *)
  e_st : st }.             (* the state after packing *)

(* the print family; the body is the HNative branch of VM.call_fn, copied (call_fn_pre checks it by reflexivity): an
   edit of Model/VM.v has to be repeated here *)
Definition call_native (name : string) (pack : bool) (xArgs xRets pos : Z) (ops : list value) (s : st) : cres :=
  if (String.eqb name "builtin.println") || (String.eqb name "builtin.print") ||
     (String.eqb name "fmt.Println") || (String.eqb name "fmt.Print") then
    if negb pack then CErr (RUnmod "native with spread") else
    match popn (Z.to_nat xArgs) ops [] with
    | Some (args, rest) =>
        match all_some (map to_string args) with
        | Some strs =>
            let line := if (String.eqb name "builtin.println") || (String.eqb name "fmt.Println")
                        then (join_sp strs ++ [10])%list else join_sp strs in
            if 0 <? xRets then CErr (RFail "incorrect returns" pos s) else COk rest (emit s line)
        | None => CErr (RUnmod "printing of this value kind")
        end
    | None => CErr (RStuck "native arguments")
    end
  else CErr (RUnmod "native function").

Definition pop_args (mk : list value -> entry) (nargs : Z) (ops : list value) : cres + entry * list value :=
  match popn (Z.to_nat nargs) ops [] with
  | Some (args, rest) => inr (mk args, rest)
  | None => inl (CErr (RStuck "arguments"))
  end.

(* Everything [call_fn] does before the body runs, which needs neither fuel nor the oracles: the outcome
   of a native or of a call that fails at the call instruction, or the frame the body is entered with
   and the caller's operands below the arguments.
   (After packing the argument count is nargs, so the count is compared only on the other path.) *)
Definition call_pre (pack : bool) (fa xArgs xRets pos : Z) (ops : list value) (s : st) : cres + entry * list value :=
  match hget s fa with
  | Some (HNative name) => inl (call_native name pack xArgs xRets pos ops s)
  | Some (HFunc nargs nrets variadic vtype nslots types body) =>
      let mk s1 args := mkEntry nargs nrets nslots types body args s1 in
      if variadic && pack then
        let nVar := xArgs - nargs + 1 in
        if nVar <? 0 then inl (CErr (RFail "runtime error" pos s)) else
        match popn (Z.to_nat nVar) ops [] with
        | Some (vargs, rest) => let (s1, sv) := variadic_arg s vtype nVar vargs in pop_args (mk s1) nargs (sv :: rest)
        | None => inl (CErr (RStuck "variadic arguments"))
        end
      else if xArgs =? nargs then pop_args (mk s) nargs ops
      else inl (CErr (RFail "incorrect args" pos s))
  | _ => inl (CErr (RFail "interface conversion" pos s))
  end.

Lemma bt_variadic_arg s vtype n vargs : bt (fst (variadic_arg s vtype n vargs)) = bt s.
Proof. unfold variadic_arg. destruct (n =? 0); reflexivity. Qed.

Lemma call_pre_err pack fa xa xr pos ops s r :
  call_pre pack fa xa xr pos ops s = inl (CErr r) -> r <> RFuel /\ forall sl o s', r <> RDone sl o s'.
Proof.
  unfold call_pre, call_native, pop_args.
  repeat split_match; intros E; inversion E; split; discriminate.
Qed.

Lemma call_pre_obj pack fa xa xr pos ops s e rest :
  call_pre pack fa xa xr pos ops s = inr (e, rest) ->
  exists variadic vtype, hget s fa = Some (HFunc (e_nargs e) (e_nrets e) variadic vtype (e_nslots e) (e_types e) (e_body e)).
Proof.
  unfold call_pre, pop_args. destruct (hget s fa) as [[nargs nrets variadic vtype nslots types body|name| | | | |]|]; try discriminate.
  intros E. exists variadic, vtype. revert E. cbv zeta. repeat split_match; intros E; inversion E; reflexivity.
Qed.

(* The states it hands on: [s], [s] with a line printed, or [s] with the surplus arguments packed; a failure
   is reported at the call instruction.  P is any property of states that printing and packing keep: C20_bt takes
   "the backtrace is that of s", C07_sound the heap invariant st_ok. *)
Lemma call_pre_st (P : st -> Prop) pack fa xa xr pos ops s :
  P s -> (forall line, P (emit s line)) -> (forall vtype n vargs, P (fst (variadic_arg s vtype n vargs))) ->
  match call_pre pack fa xa xr pos ops s with
  | inl (COk _ s') => P s'
  | inl (CErr (RFail _ p s')) => p = pos /\ P s'
  | inl (CErr _) => True
  | inr (e, _) => P (e_st e)
  end.
Proof.
  intros Hs He Hv. unfold call_pre, call_native, pop_args.
  repeat match goal with
         | |- context [variadic_arg s ?t ?n ?v] => specialize (Hv t n v); destruct (variadic_arg s t n v); cbn [fst] in Hv
         | _ => split_match
         end; cbn [e_st]; auto.
Qed.

(* With its xa arguments on the stack (and a variadic function having the parameter that takes the surplus
   ones) a call is not stuck before the body, and removes exactly those xa operands; a native that
   returns was asked for no result. *)
Lemma call_pre_pops pack fa xa xr pos ops s :
  0 <= xa <= zlen ops ->
  (forall nargs nrets vtype nslots types body, hget s fa = Some (HFunc nargs nrets true vtype nslots types body) -> 1 <= nargs) ->
  match call_pre pack fa xa xr pos ops s with
  | inl (COk rest _) => rest = skipn (Z.to_nat xa) ops /\ xr <= 0
  | inl (CErr (RStuck _)) => False
  | inl (CErr _) => True
  | inr (e, rest) => rest = skipn (Z.to_nat xa) ops /\ zlen (e_args e) = e_nargs e
  end.
Proof.
  intros Hxa Hv. unfold call_pre, call_native, pop_args.
  destruct (hget s fa) as [[nargs nrets variadic vtype nslots types body|name| | | | |]|]; try exact I; cbv zeta.
  - destruct (variadic && pack) eqn:VP.
    + apply andb_true_iff in VP. destruct VP as [-> _]. specialize (Hv _ _ _ _ _ _ eq_refl).
      destruct (xa - nargs + 1 <? 0) eqn:NV; [exact I|].
      destruct (popn_pops (xa - nargs + 1) ops) as (vargs & -> & _); [lia|].
      destruct (variadic_arg s vtype (xa - nargs + 1) vargs) as [s1 sv].
      destruct (popn_pops nargs (sv :: skipn (Z.to_nat (xa - nargs + 1)) ops)) as (args & -> & L).
      { rewrite zlen_cons, zlen_skipn. lia. }
      cbn [e_args e_nargs]. split; [|exact L].
      replace (Z.to_nat nargs) with (S (Z.to_nat (nargs - 1))) by lia. cbn [skipn]. rewrite skipn_add. f_equal. lia.
    + destruct (xa =? nargs) eqn:E; [|exact I]. apply Z.eqb_eq in E. subst xa.
      destruct (popn_pops nargs ops Hxa) as (args & -> & L). split; [reflexivity|exact L].
  - destruct (_ || _); [|exact I]. destruct (negb pack); [exact I|].
    destruct (popn_pops xa ops Hxa) as (args & -> & _).
    destruct (all_some (map to_string args)); [|exact I]. destruct (0 <? xr) eqn:X; [exact I|]. split; [reflexivity|lia].
Qed.

(* [y] is [x] with [lo] handed on underneath; an [x] stuck for want of operands says nothing about [y] *)
Definition pre_under (lo : list value) (x y : cres + entry * list value) : Prop :=
  match x with
  | inl (COk rest s') => y = inl (COk (rest ++ lo) s')
  | inl (CErr (RStuck _)) => True
  | inl c => y = inl c
  | inr (e, rest) => y = inr (e, (rest ++ lo)%list)
  end.

Lemma pop_args_frame mk nargs ops lo : pre_under lo (pop_args mk nargs ops) (pop_args mk nargs (ops ++ lo)).
Proof.
  unfold pop_args. destruct (popn (Z.to_nat nargs) ops []) as [[args rest]|] eqn:E; [|exact I].
  now rewrite (popn_frame _ _ _ _ _ lo E).
Qed.

Lemma call_pre_frame pack fa xa xr pos ops s lo :
  pre_under lo (call_pre pack fa xa xr pos ops s) (call_pre pack fa xa xr pos (ops ++ lo) s).
Proof.
  unfold call_pre, call_native.
  destruct (hget s fa) as [[nargs nrets variadic vtype nslots types body|name| | | | |]|]; try reflexivity; cbv zeta.
  - destruct (variadic && pack).
    + destruct (xa - nargs + 1 <? 0); [reflexivity|].
      destruct (popn (Z.to_nat (xa - nargs + 1)) ops []) as [[vargs rest]|] eqn:E; [|exact I].
      rewrite (popn_frame _ _ _ _ _ lo E). destruct (variadic_arg s vtype (xa - nargs + 1) vargs) as [s1 sv].
      apply (pop_args_frame _ nargs (sv :: rest)).
    + destruct (xa =? nargs); [apply pop_args_frame|reflexivity].
  - destruct (_ || _); [|reflexivity]. destruct (negb pack); [reflexivity|].
    destruct (popn (Z.to_nat xa) ops []) as [[args rest]|] eqn:E; [|exact I]. rewrite (popn_frame _ _ _ _ _ lo E).
    destruct (all_some (map to_string args)); [|reflexivity]. destruct (0 <? xr); reflexivity.
Qed.

Section C09.
  Variable grow : Z -> Z -> Z.
  Variable ext_get : st -> value -> value -> option (res value).
  Variable ext_set : st -> value -> value -> value -> option (res st).
  Variable ext_len : st -> value -> option Z.
  Variable ext_getattr : st -> value -> Z -> option (res (value * st)).
  Variable ext_setattr : st -> value -> Z -> value -> option (res st).

  Notation execf := (exec grow ext_get ext_set ext_len ext_getattr ext_setattr).
  Notation callf := (call_fn grow ext_get ext_set ext_len ext_getattr ext_setattr).

  Lemma call_fn_pre f pack fa xa xr pos ops s :
    callf (S f) pack fa xa xr pos ops s =
    match call_pre pack fa xa xr pos ops s with
    | inl c => c
    | inr (e, rest) => finish (e_nargs e) (e_nrets e) xr pos (e_types e) rest
                 (execf f (e_body e) 0 (entry_slots (e_args e) (e_types e) (e_nslots e) (e_nargs e)) [] (push_bt (e_st e) pos))
    end.
  Proof.
    cbn [VM.call_fn]. fold execf. unfold call_pre.
    destruct (hget s fa) as [[nargs nrets variadic vtype nslots types body|name| | | | |]|]; try reflexivity.
    cbv zeta. destruct (variadic && pack).
    2: destruct (xa =? nargs); [|reflexivity].
    1: destruct (xa - nargs + 1 <? 0); [reflexivity|];
       destruct (popn (Z.to_nat (xa - nargs + 1)) ops []) as [[vargs rest]|]; [|reflexivity];
       destruct (variadic_arg s vtype (xa - nargs + 1) vargs) as [s1 sv];
       replace (xa - (xa - nargs + 1) + 1 =? nargs) with true by lia.
    all: cbn [negb]; unfold pop_args; destruct (popn (Z.to_nat nargs) _ []) as [[args rest']|]; [|reflexivity];
      cbn [e_nargs e_nrets e_nslots e_types e_body e_args e_st];
      unfold finish, entry_slots, typed_results, assign_zip; destruct (execf f body 0 _ [] _); reflexivity.
  Qed.

  Lemma call_not_done fuel pack fa xa xr pos ops s sl o s' :
    callf fuel pack fa xa xr pos ops s <> CErr (RDone sl o s').
  Proof.
    destruct fuel; [discriminate|]. rewrite call_fn_pre.
    destruct (call_pre pack fa xa xr pos ops s) as [c|[e rest]] eqn:E; [|apply finish_not_done].
    intros ->. exact (proj2 (call_pre_err _ _ _ _ _ _ _ _ E) _ _ _ eq_refl).
  Qed.

  (* A call with the declared number of arguments (CALL of a non-variadic function, or
     CALLVARIADIC = callReady of any function) runs the body on a frame whose first slots
     are the arguments assigned to the declared parameter types, in order, the remaining
     slots nil, and an EMPTY operand stack: the callee cannot reach [lo].  The outcome is
     [finish]: the first xRets results, typed, on top of the untouched [lo]. *)
  Lemma call_exact fuel pack fa xRets pos args lo s nargs nrets variadic vtype nslots types body :
    hget s fa = Some (HFunc nargs nrets variadic vtype nslots types body) ->
    variadic && pack = false ->
    zlen args = nargs ->
    callf (S fuel) pack fa nargs xRets pos (rev args ++ lo)%list s =
      finish nargs nrets xRets pos types lo
        (execf fuel body 0 (entry_slots args types nslots nargs) [] (push_bt s pos)).
  Proof.
    intros H HV HA. rewrite call_fn_pre. unfold call_pre, pop_args. rewrite H, HV, Z.eqb_refl.
    replace (Z.to_nat nargs) with (length args) by (unfold zlen in HA; lia). now rewrite popn_args.
  Qed.

  (* a different argument count: "incorrect args"; the body is not run, whatever the stack holds *)
  Lemma call_wrong_args fuel pack fa xArgs xRets pos ops s nargs nrets variadic vtype nslots types body :
    hget s fa = Some (HFunc nargs nrets variadic vtype nslots types body) ->
    variadic && pack = false ->
    xArgs <> nargs ->
    callf (S fuel) pack fa xArgs xRets pos ops s = CErr (RFail "incorrect args" pos s).
  Proof.
    intros H HV HA. rewrite call_fn_pre. unfold call_pre. rewrite H, HV.
    destruct (xArgs =? nargs) eqn:E; [lia|reflexivity].
  Qed.

  (* CALL of a variadic function, general form: the call proceeds as a call with exactly nargs
     arguments whose last one is the value [variadic_arg] builds from the surplus arguments *)
  Lemma call_variadic_gen fuel fa xRets pos fixed extra lo s nargs nrets vtype nslots types body :
    hget s fa = Some (HFunc nargs nrets true vtype nslots types body) ->
    zlen fixed = nargs - 1 ->
    let p := variadic_arg s vtype (zlen extra) extra in
    callf (S fuel) true fa (zlen fixed + zlen extra) xRets pos (rev extra ++ rev fixed ++ lo)%list s =
      callf (S fuel) false fa nargs xRets pos (rev (fixed ++ [snd p]) ++ lo)%list (fst p).
  Proof.
    intros H HF p.
    rewrite (call_exact fuel false fa xRets pos (fixed ++ [snd p]) lo (fst p) nargs nrets true vtype nslots types body).
    2: apply hget_variadic_arg; exact H. 2: reflexivity. 2: rewrite zlen_app, zlen_cons, zlen_nil; lia.
    rewrite call_fn_pre. unfold call_pre. rewrite H. cbn [andb]. cbv zeta.
    replace (zlen fixed + zlen extra - nargs + 1) with (zlen extra) by lia.
    pose proof (zlen_nonneg extra). destruct (zlen extra <? 0) eqn:E; [lia|].
    unfold zlen at 1. rewrite Nat2Z.id, <- (rev_length extra), popn_app_gen, rev_involutive, app_nil_r.
    fold p. rewrite (surjective_pairing p). unfold pop_args.
    change (snd p :: rev fixed ++ lo)%list with (rev [snd p] ++ rev fixed ++ lo)%list.
    rewrite app_assoc, <- rev_app_distr.
    replace (Z.to_nat nargs) with (length (fixed ++ [snd p])) by (rewrite app_length; unfold zlen in HF; cbn [length]; lia).
    now rewrite popn_args.
  Qed.

  (* CALL of a variadic function WITH surplus arguments: they become ONE new slice (appended to the
     heap) of the declared element type, its cells the surplus arguments assigned to that type, in
     order; then the call proceeds as a call with exactly nargs arguments whose last one is that slice *)
  Lemma call_variadic_pack fuel fa xRets pos fixed extra lo s nargs nrets vtype nslots types body :
    hget s fa = Some (HFunc nargs nrets true vtype nslots types body) ->
    zlen fixed = nargs - 1 ->
    1 <= zlen extra ->
    let e := Type_value vtype in
    let cells := map (fun a => Value_assign a e) extra in
    let s1 := fst (new_slice s e cells) in
    let sv := snd (new_slice s e cells) in
    callf (S fuel) true fa (zlen fixed + zlen extra) xRets pos (rev extra ++ rev fixed ++ lo)%list s =
      callf (S fuel) false fa nargs xRets pos (rev (fixed ++ [sv]) ++ lo)%list s1 /\
    sv = refV (fn_sliceType e) (zlen (heap s) + 1) /\
    heap s1 = (heap s ++ [HArr cells; HSlice e (zlen (heap s)) 0 (zlen extra) (zlen extra)])%list.
  Proof.
    intros H HF HE e cells s1 sv.
    split; [|split].
    - pose proof (call_variadic_gen fuel fa xRets pos fixed extra lo s nargs nrets vtype nslots types body H HF) as G.
      cbv zeta in G. unfold variadic_arg in G.
      destruct (zlen extra =? 0) eqn:E0; [lia|]. exact G.
    - unfold sv, new_slice, alloc. cbn [snd heap]. rewrite zlen_app. reflexivity.
    - unfold s1, new_slice, alloc. cbn [fst heap]. rewrite <- app_assoc. cbn [app].
      unfold cells. rewrite zlen_map. reflexivity.
  Qed.

  (* CALL of a variadic function WITHOUT surplus arguments: the variadic parameter is the NIL slice of
     the declared variadic type (no object part), nothing is allocated: the call is the exact-count
     call on the SAME state with that nil value as last argument *)
  Lemma call_variadic_none fuel fa xRets pos fixed lo s nargs nrets vtype nslots types body :
    hget s fa = Some (HFunc nargs nrets true vtype nslots types body) ->
    zlen fixed = nargs - 1 ->
    callf (S fuel) true fa (zlen fixed) xRets pos (rev fixed ++ lo)%list s =
      callf (S fuel) false fa nargs xRets pos (rev (fixed ++ [mkValue vtype (Zn 0) PNone]) ++ lo)%list s.
  Proof.
    intros H HF.
    pose proof (call_variadic_gen fuel fa xRets pos fixed [] lo s nargs nrets vtype nslots types body H HF) as G.
    cbv zeta in G. change (zlen (@nil value)) with 0 in G. rewrite Z.add_0_r in G. exact G.
  Qed.

  (* fewer arguments than the fixed parameters: an error (Go: makeslice: len out of range) *)
  Lemma call_variadic_few fuel fa xArgs xRets pos ops s nargs nrets vtype nslots types body :
    hget s fa = Some (HFunc nargs nrets true vtype nslots types body) ->
    xArgs < nargs - 1 ->
    callf (S fuel) true fa xArgs xRets pos ops s = CErr (RFail "runtime error" pos s).
  Proof.
    intros H HX. rewrite call_fn_pre. unfold call_pre. rewrite H. cbn [andb]. cbv zeta.
    destruct (xArgs - nargs + 1 <? 0) eqn:E; [reflexivity|lia].
  Qed.

  (* CALLVARIADIC f(a, s...): the spread slice value itself (same heap address, heap untouched at
     entry) is the callee's last parameter *)
  Lemma call_spread fuel fa xRets pos fixed sv lo s nargs nrets vtype nslots types body :
    hget s fa = Some (HFunc nargs nrets true vtype nslots types body) ->
    zlen fixed = nargs - 1 -> zlen types >= nargs ->
    vt sv <> untypedInt -> vt sv <> TypeNil ->
    callf (S fuel) false fa nargs xRets pos (rev (fixed ++ [sv]) ++ lo)%list s =
      finish nargs nrets xRets pos types lo
        (execf fuel body 0 (entry_slots (fixed ++ [sv]) types nslots nargs) [] (push_bt s pos)) /\
    nth_error (entry_slots (fixed ++ [sv]) types nslots nargs) (Z.to_nat (nargs - 1)) = Some sv /\
    heap (push_bt s pos) = heap s.
  Proof.
    intros H HF HT H1 H2. split; [|split].
    - apply call_exact with (variadic := true) (vtype := vtype); auto.
      rewrite zlen_app, zlen_cons, zlen_nil. lia.
    - assert (L : Z.to_nat (nargs - 1) = length fixed) by (unfold zlen in HF; lia).
      destruct (nth_error types (Z.to_nat (nargs - 1))) as [t|] eqn:E.
      + rewrite (entry_slot _ _ _ _ _ sv t); [now rewrite assign_keeps| |exact E].
        rewrite L, nth_error_app2, Nat.sub_diag by lia. reflexivity.
      + apply nth_error_None in E. unfold zlen in *. lia.
    - reflexivity.
  Qed.

  (* codeFunc builds well-formed function objects *)
  Lemma func_wf codes pc i slots ops s sl' ops' s' d :
    icode i = c_Func -> 0 <= snd (splitParams (iA i)) -> 0 <= iC i ->
    step1 grow ext_get ext_set ext_len ext_getattr ext_setattr codes pc i slots ops s = SJump d sl' ops' s' ->
    exists nargs nrets variadic vtype nslots types body,
      ops' = refV TypeFunc (zlen (heap s)) :: ops /\
      heap s' = (heap s ++ [HFunc nargs nrets variadic vtype nslots types body])%list /\
      wf_func nargs nrets types /\ (variadic = true -> 1 <= nargs).
  Proof.
    destruct i as [c a b cc p]. cbn [icode iA iC]. intros -> HR HJ. unfold c_Func. step1_eval.
    destruct (splitParams a) as [args rets] eqn:SP. cbn [snd] in HR.
    set (nargs := Z.abs args). set (n := nargs + rets + cc).
    set (tokens := firstn (Z.to_nat n) (skipn (Z.to_nat (pc + 1)) codes)).
    destruct (zlen tokens <? n) eqn:EL; [discriminate|].
    unfold alloc. intros E. inversion E. subst.
    do 7 eexists. split; [reflexivity|]. split; [reflexivity|]. split.
    - unfold wf_func. split; [lia|]. split; [lia|].
      rewrite zlen_map, zlen_firstn. lia.
    - intros HV. lia.
  Qed.
End C09.

(* A compiled recursive function run by the model at any depth: the witness of Props/C09.v calls it 3000 deep. *)

(* the body compiled for  func sum(n int) int { if n == 0 { return 0 }; return n + sum(n-1) }  (witness (c) below) *)
Definition sum_body : list instr :=
  [mkI c_LocalGet 0 0 0 0; mkI c_Push 0 0 0 0; mkI c_Eq 0 0 0 0; mkI c_JumpFalse 2 0 0 0;
   mkI c_Push 0 0 0 0; mkI c_Return 1 0 0 0;
   mkI c_LocalGet 0 0 0 0; mkI c_LocalGet 0 0 0 0; mkI c_IncDec (-1) 0 0 0; mkI c_FastCall 0 1 1 0;
   mkI c_Add 0 0 0 0; mkI c_Return 1 0 0 0].

(* one instruction of [exec] on concrete code at a closed pc: the instruction is looked up by evaluation,
   step1 goes to the branch of its opcode, a read of slot 0 is resolved *)
Ltac exec_step :=
  match goal with
  | |- context [VM.exec ?g ?e1 ?e2 ?e3 ?e4 ?e5 (S ?f) ?codes ?pc ?sl ?ops ?s] =>
      let i := eval cbv in (znth codes pc) in
      rewrite (exec_S g e1 e2 e3 e4 e5 f codes pc sl ops s); change (znth codes pc) with i; cbv iota; step1_eval;
      try change (znth (?x :: _) 0) with (Some x); cbn [slift ipos]
  end.

Lemma op_eq_const n c : Value_opEq (V I32 n) (fn_newUntypedInt c) = Ok (fn_Bool (n =? c)).
Proof. reflexivity. Qed.

Lemma Bool_fn_Bool b : Value_Bool (fn_Bool b) = b.
Proof. now destruct b. Qed.

Lemma in_range_int z : -2147483648 <= z <= 2147483647 -> in_range I32 z = true.
Proof. exact (proj2 (in_range_iff I32 z)). Qed.

(* a function of one parameter that leaves its one result: the result typed, the backtrace as before the call *)
Lemma finish_one pos t0 t1 lo sl r s :
  finish 1 1 1 pos [t0; t1] lo (RDone sl [r] (push_bt s pos)) = COk (Value_assign r t1 :: lo) s.
Proof. now destruct s. Qed.

Lemma triangle n : 0 < n -> 0 <= (n - 1) * (n - 1 + 1) / 2 /\ n + (n - 1) * (n - 1 + 1) / 2 = n * (n + 1) / 2.
Proof.
  intros H. split.
  - apply Z.div_pos; [apply Z.mul_nonneg_nonneg|]; lia.
  - rewrite Z.add_comm, <- Z.div_add by lia. f_equal. ring.
Qed.

(* sum(n) = n(n+1)/2 as long as that is an int: in any state whose global 0 is the function sum, a call with an
   argument that the int parameter takes as n puts int n(n+1)/2 on the caller's operands and hands the state back
   as it was (nothing printed or allocated, the backtrace entry pushed and popped).  By induction on n.  Fuel
   bounds the nesting: the call and six instructions take 7 units at n = 0; otherwise the inner call is entered
   after the call and eight instructions, and the two instructions after it need no more than it had. *)
Lemma sum_call grow eg es el ega esa fa n : 0 <= n -> n * (n + 1) / 2 <= 2147483647 ->
  forall fuel a pos lo s,
  znth (globals s) 0 = Some (refV TypeFunc fa) ->
  hget s fa = Some (HFunc 1 1 false 0 1 [TypeInt32; TypeInt32] sum_body) ->
  Value_assign a TypeInt32 = V I32 n -> 9 * n + 7 <= Z.of_nat fuel ->
  call_fn grow eg es el ega esa fuel true fa 1 1 pos (a :: lo) s = COk (V I32 (n * (n + 1) / 2) :: lo) s.
Proof.
  intros Hn. pattern n. apply Zlt_0_ind; [|exact Hn]; clear n Hn.
  intros n IH Hn Hr fuel a pos lo s Hg Hf Ha Hfuel.
  do 7 (destruct fuel as [|fuel]; [lia|]).
  change (a :: lo) with (rev [a] ++ lo)%list.
  rewrite (call_exact grow eg es el ega esa _ true fa 1 pos [a] lo s _ _ _ _ _ _ _ Hf eq_refl eq_refl).
  unfold entry_slots, assign_zip. cbn [combine map fst snd app Z.sub Z.to_nat repeat Z.opp Z.add Z.pos_sub]. rewrite Ha.
  exec_step. exec_step. exec_step. rewrite op_eq_const. cbn [slift]. exec_step. rewrite Bool_fn_Bool.
  destruct (Z.eqb_spec n 0) as [->|N].
  - exec_step. exec_step. apply finish_one.
  - destruct (triangle n ltac:(lia)) as [T0 T].
    assert (Rn : in_range I32 n = true) by (apply in_range_int; lia).
    assert (Rt : in_range I32 ((n - 1) * (n - 1 + 1) / 2) = true) by (apply in_range_int; lia).
    do 4 (destruct fuel as [|fuel]; [lia|]).
    exec_step. exec_step. exec_step. rewrite (incdec_spec I32 n (-1) eq_refl Rn eq_refl eq_refl).
    cbn [slift Z.ltb Z.compare Z.opp]. unfold isub. rewrite wrap_id by (apply in_range_int; lia).
    exec_step. change (globals (push_bt s pos)) with (globals s). rewrite Hg. cbn [addr_of vval refV].
    rewrite (IH (n - 1)) by first [lia | assumption | exact (assign_typed_same I32 _ eq_refl)].
    exec_step. rewrite (op_add I32 _ _ eq_refl Rn Rt). cbn [slift]. unfold iadd.
    rewrite T, wrap_id by (apply in_range_int; lia).
    exec_step. rewrite finish_one. now rewrite (assign_typed_same I32).
Qed.
