(* C18: concrete instances (oracles that model nothing, an empty machine) for the witnesses of Props/C18.v,
   and the proof that the hypotheses of c18_eval hold along a concrete session. *)
From Coq Require Import ZArith List String Ascii Bool Lia.
From GV Require Import GoSpec.GoPrim Gen.ValueOps_gen Model.Lookup Model.VM Model.Incr.
Import ListNotations.
Open Scope Z_scope.
Open Scope string_scope.

Definition w_grow := fun _ _ : Z => 0.
Definition w_get := fun (_ : st) (_ _ : value) => @None (res value).
Definition w_set := fun (_ : st) (_ _ _ : value) => @None (res st).
Definition w_len := fun (_ : st) (_ : value) => @None Z.
Definition w_ga := fun (_ : st) (_ : value) (_ : Z) => @None (res (value * st)).
Definition w_sa := fun (_ : st) (_ : value) (_ : Z) (_ : value) => @None (res st).
Definition w_eval1 := Incr.eval1 w_grow w_get w_set w_len w_ga w_sa.
Definition w_eval_seq := Incr.eval_seq w_grow w_get w_set w_len w_ga w_sa.
Definition w_m0 := mkM new_lookup [] (mkSt [] [] [] []).
Definition w_obs (r : list eres * mstate) := (fst r, globals (m_vm (snd r)), i2k (m_lk (snd r))).
Definition w_whole (p : list tstmt) := w_obs (let (e, m) := w_eval1 true 100 w_m0 p in ([e], m)).
Definition w_incr (cs : list (list tstmt)) := w_obs (w_eval_seq true 100 w_m0 cs).
Definition vInt32 (n : Z) := mkValue 23 (Zn n) PNone.
Definition vType (t : Z) := mkValue 4 (Zn t) PNone.

Ltac comp t := let v := eval vm_compute in t in replace t with v by (vm_compute; reflexivity).
Ltac comp_in t H := let v := eval vm_compute in t in replace t with v in H by (vm_compute; reflexivity).
(* one chunk of incr_hyps: compute the compile and the run, then each named hypothesis *)
Ltac hyps_step :=
  cbn [Incr.incr_hyps];
  match goal with |- context [compile_top ?p 0 ?g] => comp (compile_top p 0 g) end;
  cbv beta iota;
  split; [vm_compute; reflexivity|];
  match goal with |- match ?r with _ => _ end => comp r end;
  cbv beta iota zeta;
  split; [intro; reflexivity|];
  split; [vm_compute; reflexivity|];
  split; [match goal with |- Forall _ ?l => comp l end; repeat (constructor; [vm_compute; auto|]); constructor|];
  split; [intros chs gA gB H1 H2;
          match type of H1 with ?l = _ => comp_in l H1 end; match type of H2 with ?l = _ => comp_in l H2 end;
          inversion H1; inversion H2; subst; eexists; vm_compute; reflexivity|].

Lemma hyps_witness :
  Incr.incr_hyps w_grow w_get w_set w_len w_ga w_sa 50 w_m0
    [[s_type_basic "T" 23]; [s_define_int "x" 7]; [s_define_call "y" "T" 2]] /\
  (forall chs g, compile_chunks [[s_type_basic "T" 23]; [s_define_int "x" 7]; [s_define_call "y" "T" 2]] (cstate_of w_m0) = (Some chs, g) ->
                 total_slots chs < slot_limit).
Proof.
  split.
  - do 3 hyps_step. exact I.
  - intros chs g H. match type of H with ?l = _ => comp_in l H end. inversion H; subst. vm_compute. reflexivity.
Qed.
