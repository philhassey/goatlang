(* C01 (composition of C05 and C04): for arithmetic / bitwise / shift expressions over int32 variables,
   what goatlang computes -- its own grouping of the token list, the opcode its compiler picks for each
   operator, the Value methods the VM executes -- is what Go computes for Go's grouping with Go's int32
   operators, for every token list, every variable assignment, every operand value. *)
From Coq Require Import ZArith List String Bool Lia.
From GV Require Import GoSpec.GoPrim GoSpec.GoPrec Gen.ValueOps_gen Gen.Tables_gen Model.Pratt Model.PrattInst Model.ExprEval
                        Proofs.C04_ops Proofs.C05_pratt Proofs.C05_inst.
Import ListNotations.
Open Scope string_scope.
Open Scope Z_scope.

Definition lift32 (r : res Z) : res value :=
  match r with Ok z => Ok (V I32 z) | Panic => Panic | Unmodelled => Unmodelled end.

Lemma mem_arith_ops op : existsb (String.eqb op) arith_ops = true ->
  op = "+" \/ op = "-" \/ op = "*" \/ op = "/" \/ op = "%" \/ op = "&" \/ op = "|" \/ op = "^" \/ op = "<<" \/ op = ">>".
Proof.
  intros H. apply C05_inst.existsb_eqb_In in H. cbn [arith_ops In] in H.
  repeat (destruct H as [<-|H]; [tauto|]). destruct H.
Qed.

Lemma arith_Bin op l r : arith (Bin op l r) = true ->
  existsb (String.eqb op) arith_ops = true /\ arith l = true /\ arith r = true.
Proof. cbn [arith]. rewrite !andb_true_iff. tauto. Qed.

(* the step taken at a binary node, goatlang side and Go side *)
Definition goat_bin (op : string) (a b : value) : res value :=
  match assoc op infixMap with
  | Some code => match binop_of_code code with Some f => f a b | None => Unmodelled end
  | None => Unmodelled
  end.
Definition go_bin (op : string) (a b : Z) : res Z :=
  match go_binop op with Some f => f a b | None => Unmodelled end.

Lemma go_bin_in_range op a b z :
  existsb (String.eqb op) arith_ops = true -> in_range I32 a = true ->
  go_bin op a b = Ok z -> in_range I32 z = true.
Proof.
  intros Hop Ha. apply mem_arith_ops in Hop.
  destruct Hop as [->|[->|[->|[->|[->|[->|[->|[->|[->| ->]]]]]]]]]; unfold go_bin;
    cbn [go_binop String.eqb Ascii.eqb Bool.eqb]; intros E;
    try (injection E as <-; apply wrap_in_range).
  - exact (iquo_in_range _ _ _ _ E).
  - exact (irem_in_range _ _ _ _ E).
  - exact (ishl_in_range _ _ _ _ E).
  - exact (ishr_in_range _ _ _ _ Ha E).
Qed.

#[local] Hint Rewrite op_add op_sub op_mul op_quo op_rem op_and op_or op_xor op_shl op_shr
  using (reflexivity || assumption) : value_ops.

Lemma bin_step op a b :
  existsb (String.eqb op) arith_ops = true ->
  in_range I32 a = true -> in_range I32 b = true ->
  goat_bin op (V I32 a) (V I32 b) = lift32 (go_bin op a b).
Proof.
  intros Hop Ha Hb. apply mem_arith_ops in Hop.
  destruct Hop as [->|[->|[->|[->|[->|[->|[->|[->|[->| ->]]]]]]]]]; unfold goat_bin, go_bin;
    cbn [assoc infixMap binop_of_code go_binop String.eqb Ascii.eqb Bool.eqb];
    autorewrite with value_ops; reflexivity.
Qed.

Lemma neg_step a : in_range I32 a = true ->
  Value_opMul (V I32 a) (fn_newUntypedInt (-1)) = V I32 (ineg I32 a).
Proof.
  intro Ha.
  change (fn_newUntypedInt (-1)) with (Untyped (-1)).
  rewrite (const_r_mul I32 a (-1) eq_refl Ha eq_refl).
  rewrite (op_mul I32 a (-1) eq_refl Ha eq_refl).
  unfold imul, ineg. do 2 f_equal. lia.
Qed.

Lemma convert_allones : Value_convert (fn_Uint32 4294967295) TypeInt32 = Ok (V I32 (-1)).
Proof. vm_compute. reflexivity. Qed.

Lemma compl_step a : in_range I32 a = true ->
  (let a' := Value_assign (V I32 a) TypeNil in
   b <- Value_convert (fn_Uint32 4294967295) (vt a') ;; Ok (Value_opBitXor a' b))
  = Ok (V I32 (inot I32 a)).
Proof.
  intro Ha. cbv zeta.
  rewrite (assign_keeps (V I32 a) TypeNil) by (cbn; discriminate).
  change (vt (V I32 a)) with TypeInt32.
  rewrite convert_allones. cbn [bind].
  rewrite (op_xor I32 a (-1) eq_refl Ha eq_refl).
  unfold ixor, inot. rewrite Z.lxor_m1_r. reflexivity.
Qed.

Section Eval.
  Variable env : string -> Z.
  Hypothesis Henv : forall x, in_range I32 (env x) = true.

  Lemma eval_go_in_range t : arith t = true ->
    forall z, eval_go env t = Ok z -> in_range I32 z = true.
  Proof.
    induction t as [i x | op l IHl r IHr | u t IHt | t IHt]; intros Har z E; cbn [eval_go] in E.
    - injection E as <-. apply Henv.
    - apply arith_Bin in Har. destruct Har as (Hop & Harl & Harr).
      destruct (eval_go env l) as [a| |]; try discriminate.
      destruct (eval_go env r) as [b| |]; try discriminate.
      exact (go_bin_in_range op a b z Hop (IHl Harl a eq_refl) E).
    - destruct u; try discriminate; destruct (eval_go env t) as [a| |]; try discriminate;
        injection E as <-; apply wrap_in_range.
    - exact (IHt Har z E).
  Qed.

  (* the operands of a node are in range because Go's results are *)
  Lemma eval_agrees t : arith t = true ->
    eval_goat (fun x => V I32 (env x)) t = lift32 (eval_go env t).
  Proof.
    induction t as [i x | op l IHl r IHr | u t IHt | t IHt]; intros Har; cbn [eval_goat eval_go].
    - reflexivity.
    - apply arith_Bin in Har. destruct Har as (Hop & Harl & Harr).
      rewrite (IHl Harl), (IHr Harr).
      pose proof (eval_go_in_range l Harl) as Rl. pose proof (eval_go_in_range r Harr) as Rr.
      destruct (eval_go env l) as [a| |]; try reflexivity.
      destruct (eval_go env r) as [b| |]; try reflexivity.
      exact (bin_step op a b Hop (Rl a eq_refl) (Rr b eq_refl)).
    - destruct u; try discriminate; rewrite (IHt Har);
        pose proof (eval_go_in_range t Har) as Rt; destruct (eval_go env t) as [a| |]; try reflexivity;
        cbn [lift32 bind].
      + rewrite (neg_step a (Rt a eq_refl)). reflexivity.
      + exact (compl_step a (Rt a eq_refl)).
    - exact (IHt Har).
  Qed.
End Eval.

Theorem c01_eval_agrees : forall (env : string -> Z) t,
  (forall x, in_range I32 (env x) = true) -> arith t = true ->
  eval_goat (fun x => V I32 (env x)) t = lift32 (eval_go env t) /\
  (forall z, eval_go env t = Ok z -> in_range I32 z = true).
Proof.
  intros env t Henv Har. exact (conj (eval_agrees env Henv t Har) (eval_go_in_range env Henv t Har)).
Qed.

(* with the parser: whatever goatlang's parser returns for a token list is Go's grouping of it (C05) and
   evaluates to Go's value *)
Theorem c01_expr : table_ok_b = true ->
  forall ts t (env : string -> Z), goat_parse ts = inl (t, []) ->
  (forall x, in_range I32 (env x) = true) -> arith t = true ->
  flatten t = ts /\ grouped go_prec t /\
  eval_goat (fun x => V I32 (env x)) t = lift32 (eval_go env t).
Proof.
  intros Htab ts t env Hparse Henv Har.
  destruct (grouping_sound Htab ts t Hparse) as [Hf [Hg _]].
  split; [exact Hf|]. split; [exact Hg|].
  exact (proj1 (c01_eval_agrees env t Henv Har)).
Qed.

Print Assumptions c01_expr.
