(* C06 infrastructure: reachability of the abstract machine, code "carried" by a
   larger program modulo rewritten placeholders, the rewriting loops. *)
From Coq Require Import ZArith List Bool Lia.
From GV Require Import GoSpec.GoCtl Model.Ctl.
Import ListNotations.
Open Scope Z_scope.

Lemma len_app : forall a b : code, len (a ++ b) = len a + len b.
Proof. intros; unfold len; rewrite app_length; lia. Qed.
Lemma len_cons : forall (x : cinstr) c, len (x :: c) = 1 + len c.
Proof. intros; unfold len; cbn [length]; lia. Qed.
Lemma len_nil : len [] = 0.
Proof. reflexivity. Qed.
Lemma len_nonneg : forall c, 0 <= len c.
Proof. intros; unfold len; lia. Qed.
Lemma len_0_nil : forall c, len c = 0 -> c = [].
Proof. intros [|x c] H; [reflexivity | rewrite len_cons in H; pose proof (len_nonneg c); lia]. Qed.

Lemma len_rewrite : forall b brk cnt n, len (rewrite brk cnt n b) = len b.
Proof. induction b; intros; cbn [rewrite]; [reflexivity | now rewrite !len_cons, IHb]. Qed.

Lemma fetch_nth : forall C p i, 0 <= p -> fetch C (p + Z.of_nat i) = nth_error C (Z.to_nat p + i).
Proof.
  intros. unfold fetch. destruct (Z.ltb_spec (p + Z.of_nat i) 0); [lia|].
  f_equal. lia.
Qed.

Lemma upd_same : forall s i x, upd s i x i = x.
Proof. intros. unfold upd. now rewrite Nat.eqb_refl. Qed.
Lemma upd_other : forall s i x j, j <> i -> upd s i x j = s j.
Proof. intros s i x j H. unfold upd. destruct (Nat.eqb_spec j i); [contradiction | reflexivity]. Qed.

Section Base.
  Variable orc : oracle.

  Inductive star (C : code) : cfg -> cfg -> Prop :=
  | star_refl : forall c, star C c c
  | star_step : forall c c' c'', step orc C c = Next c' -> star C c' c'' -> star C c c''.

  Lemma star_trans : forall C a b c, star C a b -> star C b c -> star C a c.
  Proof. induction 1; intros; [assumption | econstructor; eauto]. Qed.

  Lemma star_one : forall C a b, step orc C a = Next b -> star C a b.
  Proof. intros; econstructor; [eassumption | constructor]. Qed.

  (* the program C holds the code c at position p, except that a BREAK / CONTINUE placeholder of c
     may have been rewritten: then it is a JUMP to the designated target (if one is designated) *)
  Definition carried_instr (C : code) (q : Z) (x : cinstr) (bt ct : option Z) : Prop :=
    match x with
    | CBreak => match bt with Some t => fetch C q = Some (CJump (t - q - 1)) | None => True end
    | CContinue => match ct with Some t => fetch C q = Some (CJump (t - q - 1)) | None => True end
    | _ => fetch C q = Some x
    end.

  Definition carries (C : code) (p : Z) (c : code) (bt ct : option Z) : Prop :=
    forall i x, nth_error c i = Some x -> carried_instr C (p + Z.of_nat i) x bt ct.

  Lemma carries_nil : forall C p bt ct, carries C p [] bt ct.
  Proof. intros C p bt ct i x H; destruct i; discriminate. Qed.

  Lemma carries_cons : forall C p x c bt ct,
    carries C p (x :: c) bt ct <-> carried_instr C p x bt ct /\ carries C (p + 1) c bt ct.
  Proof.
    intros; split.
    - intros H; split.
      + specialize (H 0%nat x eq_refl). now rewrite Z.add_0_r in H.
      + intros i y Hy. specialize (H (S i) y Hy). replace (p + 1 + Z.of_nat i) with (p + Z.of_nat (S i)) by lia. exact H.
    - intros [H0 H1] i y Hy. destruct i.
      + cbn in Hy. inversion Hy; subst. now rewrite Z.add_0_r.
      + specialize (H1 i y Hy). replace (p + Z.of_nat (S i)) with (p + 1 + Z.of_nat i) by lia. exact H1.
  Qed.

  Lemma carries_app : forall a C p b bt ct,
    carries C p (a ++ b) bt ct <-> carries C p a bt ct /\ carries C (p + len a) b bt ct.
  Proof.
    induction a; intros.
    - cbn [app]. rewrite len_nil, Z.add_0_r. split; [intros; split; [apply carries_nil | assumption] | tauto].
    - cbn [app]. rewrite !carries_cons, IHa, len_cons.
      replace (p + (1 + len a0)) with (p + 1 + len a0) by lia. tauto.
  Qed.

  Lemma carries_self : forall C, carries C 0 C None None.
  Proof.
    intros C i x H. unfold carried_instr.
    assert (F : fetch C (0 + Z.of_nat i) = Some x).
    { rewrite fetch_nth by lia. cbn. exact H. }
    destruct x; auto.
  Qed.

  (* the effect of a rewriting loop: f gives the operand written at index n *)
  Definition rw_ok (f : Z -> option Z) (n0 p : Z) (t_old t_new : option Z) : Prop :=
    (exists t, t_new = Some t /\ forall i, 0 <= i -> f (n0 + i) = Some (t - (p + i) - 1))
    \/ ((forall n, f n = None) /\ t_new = t_old).

  Lemma rw_ok_some : forall g n0 p t told,
    (forall i, 0 <= i -> g (n0 + i) = t - (p + i) - 1) -> rw_ok (fun n => Some (g n)) n0 p told (Some t).
  Proof. intros g n0 p t told H. left. exists t. split; [reflexivity|]. intros i Hi. f_equal. auto. Qed.

  Lemma rw_ok_none : forall n0 p t, rw_ok (fun _ => None) n0 p t t.
  Proof. intros. right. auto. Qed.

  Lemma rw_ok_shift : forall f n0 p a b, rw_ok f n0 p a b -> rw_ok f (n0 + 1) (p + 1) a b.
  Proof.
    intros f n0 p a b [[t [E H]] | [H E]]; [left | right; auto].
    exists t; split; auto. intros i Hi. specialize (H (i + 1) ltac:(lia)).
    replace (n0 + 1 + i) with (n0 + (i + 1)) by lia. rewrite H. f_equal. lia.
  Qed.

  (* a placeholder at index n0, position p, with its old target told: after the loop it obeys tnew *)
  Lemma rw_ok_head : forall C f n0 p told tnew, rw_ok f n0 p told tnew ->
    let obeys t := match t with Some t => fetch C p = Some (CJump (t - p - 1)) | None => True end in
    match f n0 with Some d => fetch C p = Some (CJump d) | None => obeys told end -> obeys tnew.
  Proof.
    intros C f n0 p told tnew [[t [-> Hf]] | [Hf ->]] obeys H.
    - specialize (Hf 0 ltac:(lia)). rewrite Z.add_0_r in Hf. rewrite Hf in H. cbn. rewrite H. do 2 f_equal. lia.
    - rewrite Hf in H. exact H.
  Qed.

  Lemma carries_rewrite : forall c C p n0 brk cnt bt ct bt' ct',
    carries C p (rewrite brk cnt n0 c) bt ct ->
    rw_ok brk n0 p bt bt' -> rw_ok cnt n0 p ct ct' ->
    carries C p c bt' ct'.
  Proof.
    induction c; intros C p n0 brk cnt bt ct bt' ct' H Hb Hc.
    - apply carries_nil.
    - cbn [rewrite] in H. apply carries_cons in H. destruct H as [H0 H1].
      apply carries_cons. split.
      + destruct a; try exact H0; unfold carried_instr in *.
        * apply (rw_ok_head C brk n0 p bt bt' Hb). destruct (brk n0); exact H0.
        * apply (rw_ok_head C cnt n0 p ct ct' Hc). destruct (cnt n0); exact H0.
      + eapply IHc; [exact H1 | apply rw_ok_shift; exact Hb | apply rw_ok_shift; exact Hc].
  Qed.

  Definition reaches (C : code) (p : Z) (tr : trace) (stk : list sval) (s : nat -> sval)
             (p' : Z) (tr' : trace) (L : nat) : Prop :=
    exists s', star C (mkCfg p tr stk s) (mkCfg p' tr' stk s') /\ forall i, (i < L)%nat -> s' i = s i.

  Lemma reaches_refl : forall C p tr stk s L, reaches C p tr stk s p tr L.
  Proof. intros; exists s; split; [constructor | auto]. Qed.

  Lemma reaches_star : forall C p tr stk s p' tr' L,
    star C (mkCfg p tr stk s) (mkCfg p' tr' stk s) -> reaches C p tr stk s p' tr' L.
  Proof. intros; exists s; auto. Qed.

  (* what an outcome means for the machine: pend = the point just after the code;
     bt / ct = the break / continue targets the enclosing constructs designate *)
  Definition post_ok (C : code) (p pend : Z) (tr : trace) (stk : list sval) (s : nat -> sval) (L : nat)
             (bt ct : option Z) (out : outcome) (tr' : trace) : Prop :=
    match out with
    | Normal => reaches C p tr stk s pend tr' L
    | Brk => match bt with Some t => reaches C p tr stk s t tr' L | None => True end
    | Cont => match ct with Some t => reaches C p tr stk s t tr' L | None => True end
    | Ret => exists pr n, reaches C p tr stk s pr tr' L /\ fetch C pr = Some (CReturn n)
    end.

  Lemma post_ok_step : forall C p tr stk s p1 tr1 s1 L L1 pend bt ct out tr',
    star C (mkCfg p tr stk s) (mkCfg p1 tr1 stk s1) -> (forall i, (i < L)%nat -> s1 i = s i) -> (L <= L1)%nat ->
    post_ok C p1 pend tr1 stk s1 L1 bt ct out tr' -> post_ok C p pend tr stk s L bt ct out tr'.
  Proof.
    intros C p tr stk s p1 tr1 s1 L L1 pend bt ct out tr' S1 F1 HL H.
    assert (T : forall q t, reaches C p1 tr1 stk s1 q t L1 -> reaches C p tr stk s q t L).
    { intros q t [s2 [S2 F2]]. exists s2. split; [eapply star_trans; eauto|].
      intros i Hi. rewrite F2, F1 by lia. reflexivity. }
    destruct out; cbn [post_ok] in *; [auto | destruct bt; auto | destruct ct; auto |].
    destruct H as [pr [n [R F]]]. exists pr, n. auto.
  Qed.

  Lemma post_ok_star : forall C p tr stk s p1 tr1 L pend bt ct out tr',
    star C (mkCfg p tr stk s) (mkCfg p1 tr1 stk s) ->
    post_ok C p1 pend tr1 stk s L bt ct out tr' -> post_ok C p pend tr stk s L bt ct out tr'.
  Proof. intros. eapply post_ok_step; eauto. Qed.

  Lemma post_ok_weaken : forall C p pend tr stk s L L' bt ct out tr',
    post_ok C p pend tr stk s L bt ct out tr' -> (L' <= L)%nat -> post_ok C p pend tr stk s L' bt ct out tr'.
  Proof. intros. eapply post_ok_step; eauto. constructor. Qed.

  Lemma post_ok_at : forall C p pend pend' tr stk s L bt ct out tr',
    pend' = pend -> post_ok C p pend' tr stk s L bt ct out tr' -> post_ok C p pend tr stk s L bt ct out tr'.
  Proof. intros; subst; assumption. Qed.

  Lemma post_ok_then : forall C p pend pend' tr stk s L bt ct out tr',
    post_ok C p pend tr stk s L bt ct out tr' ->
    (forall t s1, star C (mkCfg pend t stk s1) (mkCfg pend' t stk s1)) ->
    post_ok C p pend' tr stk s L bt ct out tr'.
  Proof.
    intros C p pend pend' tr stk s L bt ct out tr' H J. destruct out; auto.
    destruct H as [s1 [S F]]. exists s1. split; [eapply star_trans; eauto|exact F].
  Qed.

  Lemma post_ok_pend : forall C p pend pend' tr stk s L bt ct out tr',
    out <> Normal -> post_ok C p pend tr stk s L bt ct out tr' -> post_ok C p pend' tr stk s L bt ct out tr'.
  Proof. intros; destruct out; auto; congruence. Qed.
End Base.
