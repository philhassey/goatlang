(* C15: the loader visits exactly the packages reachable from the top package and hands them
   to the compiler in a dependency-first order; an import cycle is an error. *)
From Coq Require Import List String Bool PeanoNat Lia Permutation.
From GV Require Import Model.Loader.
Import ListNotations.
Open Scope string_scope.

Lemma mem_In : forall k l, mem k l = true <-> In k l.
Proof.
  intros k l; induction l as [|x r IH]; simpl.
  - split; [discriminate | tauto].
  - rewrite orb_true_iff, IH, String.eqb_eq. intuition congruence.
Qed.

Lemma mem_notIn : forall k l, mem k l = false <-> ~ In k l.
Proof.
  intros k l. rewrite <- mem_In. destruct (mem k l); intuition congruence.
Qed.

Lemma remove_str_remove : forall k l, remove_str k l = remove string_dec k l.
Proof.
  intros k l; induction l as [|y r IH]; simpl; [reflexivity|].
  destruct (String.eqb_spec k y), (string_dec k y); congruence.
Qed.

Lemma In_remove_str : forall k x l, In x (remove_str k l) <-> In x l /\ x <> k.
Proof.
  intros k x l. rewrite remove_str_remove. split.
  - apply in_remove.
  - intros [H Hne]. apply in_in_remove; assumption.
Qed.

Lemma NoDup_remove_str : forall k l, NoDup l -> NoDup (remove_str k l).
Proof.
  intros k l H; induction H as [|y r Hy Hr IH]; simpl.
  - constructor.
  - destruct (String.eqb k y); auto.
    constructor; auto. rewrite In_remove_str. tauto.
Qed.

(* the list under an optional entry: a native package imports nothing, and a key without an entry in the
   dependency map of the ordering loop waits for nothing *)
Definition olist (o : option (list string)) : list string :=
  match o with Some l => l | None => [] end.

Lemma aget_step : forall pkg k (dp : list (string * list string)),
  olist (aget k (map (fun e => (fst e, remove_str pkg (snd e))) (adel pkg dp))) =
  if String.eqb k pkg then [] else remove_str pkg (olist (aget k dp)).
Proof.
  intros pkg k dp; induction dp as [|[k' v] r IH]; simpl.
  - destruct (String.eqb k pkg); reflexivity.
  - destruct (String.eqb_spec pkg k') as [E1|E1]; simpl.
    + rewrite IH. destruct (String.eqb_spec k pkg) as [E2|E2]; [reflexivity|].
      destruct (String.eqb_spec k k'); [congruence|reflexivity].
    + destruct (String.eqb_spec k k') as [E3|E3].
      * destruct (String.eqb_spec k pkg); [congruence|reflexivity].
      * apply IH.
Qed.

Lemma first_ready_spec : forall keys dp,
  match first_ready keys dp with
  | Some k => In k keys /\ olist (aget k dp) = []
  | None => forall k, In k keys -> olist (aget k dp) <> []
  end.
Proof.
  intros keys dp; induction keys as [|x r IH]; simpl; [tauto|].
  destruct (aget x dp) as [[|y ys]|] eqn:Ha; [rewrite Ha; auto | | rewrite Ha; auto].
  destruct (first_ready r dp); [tauto|].
  intros k [<-|Hk]; [rewrite Ha; discriminate | auto].
Qed.

Lemma insert_sorted_perm : forall k l, Permutation (insert_sorted k l) (k :: l).
Proof.
  intros k l; induction l as [|y r IH]; simpl; [reflexivity|].
  destruct (String.leb k y); [reflexivity|].
  rewrite IH. apply perm_swap.
Qed.

Lemma sort_keys_perm : forall l, Permutation (sort_keys l) l.
Proof.
  induction l as [|y r IH]; simpl; [reflexivity|].
  rewrite insert_sorted_perm, IH. reflexivity.
Qed.

Lemma order_loop_nil : forall n dp, order_loop n [] dp = Some [].
Proof. intros [|n] dp; reflexivity. Qed.

Lemma NoDup_app_disjoint : forall (l1 l2 : list string) x,
  NoDup (l1 ++ l2) -> In x l1 -> In x l2 -> False.
Proof.
  intros l1 l2 x H H1 H2. apply in_split in H2. destruct H2 as (a & b & ->).
  rewrite app_assoc in H. apply NoDup_remove_2 in H.
  apply H, in_or_app. left. apply in_or_app. left. exact H1.
Qed.

Lemma app_tail_incl : forall (A B pre : list string) p post,
  (A ++ B = pre ++ p :: post)%list -> ~ In p A -> incl post B.
Proof.
  induction A as [|a A IH]; intros B pre p post H Hn x Hx.
  - simpl in H. subst B. apply in_or_app. right. right. exact Hx.
  - destruct pre as [|y pre]; injection H as -> H.
    + exfalso. apply Hn. left. reflexivity.
    + apply (IH B pre p post H); [|exact Hx]. intros Hin. apply Hn. right. exact Hin.
Qed.

Section Spec.
  Variable imports : string -> option (list string).

  Definition edge (p q : string) : Prop := exists l, imports p = Some l /\ In q l.
  Inductive reach (top : string) : string -> Prop :=
  | reach_top : reach top top
  | reach_step : forall p q, reach top p -> edge p q -> reach top q.

  (* a valid initialisation order for the packages reachable from top *)
  Definition valid_order (top : string) (l : list string) : Prop :=
    NoDup l /\ (forall p, In p l <-> reach top p) /\
    (* every package comes after everything it imports *)
    (forall l1 p l2, l = (l1 ++ p :: l2)%list -> forall q, edge p q -> In q l1).

  Definition cyclic (top : string) : Prop :=
    exists p, reach top p /\ exists path, path <> [] /\
      (* path = p1 .. pn with p -> p1 -> ... -> pn = p *)
      last path p = p /\
      (fix chain (a : string) (l : list string) : Prop :=
         match l with [] => True | b :: r => edge a b /\ chain b r end) p path.

  (* the reachable part of the graph is finite: a list that contains every reachable package *)
  Variable universe : list string.
  (* (a per-top premise: `reach top top` holds for every top, so no finite list covers ALL tops) *)
  Definition universe_ok (top : string) : Prop := forall p, reach top p -> In p universe.

  (* with a budget of at least 1 + the number of import edges in the universe + |universe|, discovery
     never runs out (the Go worklist loop terminates) and finds exactly the reachable packages *)
  Definition budget : nat :=
    S (List.length universe + fold_right (fun p n => match imports p with Some l => List.length l + n | None => n end) 0 universe).

  Lemma edge_olist : forall p q, edge p q <-> In q (olist (imports p)).
  Proof.
    intros p q. unfold edge. destruct (imports p) as [l|]; simpl.
    - split; [intros (l' & [= <-] & H); exact H | eauto].
    - split; [intros (l' & [=] & _) | tauto].
  Qed.

  Fixpoint chain (a : string) (l : list string) : Prop :=
    match l with [] => True | b :: r => edge a b /\ chain b r end.

  Lemma cyclic_iff : forall top, cyclic top <-> exists p m, reach top p /\ chain p (m ++ [p]).
  Proof.
    intros top; split.
    - intros (p & Hr & path & Hne & Hl & Hc). exists p, (removelast path). split; [exact Hr|].
      rewrite (app_removelast_last p Hne), Hl in Hc. exact Hc.
    - intros (p & m & Hr & Hc). exists p. split; [exact Hr|]. exists (m ++ [p])%list.
      split; [destruct m; discriminate|]. split; [apply last_last | exact Hc].
  Qed.

  Lemma chain_app_l : forall l1 l2 a, chain a (l1 ++ l2)%list -> chain a l1.
  Proof.
    induction l1 as [|x r IH]; intros l2 a H; simpl in *.
    - exact I.
    - destruct H as [H1 H2]. split; eauto.
  Qed.

  Definition vis (d : disc) : list string := map fst (packages d).

  (* the packages seen so far, visited or waiting, are reachable and contain top and every import of a visited one *)
  Definition DInv (top : string) (todo : list string) (d : disc) : Prop :=
    (forall x, In x (vis d ++ todo) -> reach top x) /\
    NoDup (vis d) /\
    (forall p, aget p (deps d) = if mem p (vis d) then imports p else None) /\
    (forall p q, In p (vis d) -> edge p q -> In q (vis d ++ todo)) /\
    In top (vis d ++ todo).

  (* fuel: the length of the worklist plus the imports of the packages of the universe not yet visited
     (budget is S (|universe| + sumw universe)) *)
  Definition sumw (l : list string) : nat :=
    fold_right (fun p n => match imports p with Some l => List.length l + n | None => n end) 0 l.
  Definition unvis (v u : list string) : list string := filter (fun x => negb (mem x v)) u.

  Lemma sumw_cons : forall x l, sumw (x :: l) = List.length (olist (imports x)) + sumw l.
  Proof.
    intros x l. unfold sumw; simpl. destruct (imports x); reflexivity.
  Qed.

  Lemma unvis_cons : forall v x r,
    unvis v (x :: r) = if negb (mem x v) then x :: unvis v r else unvis v r.
  Proof. reflexivity. Qed.

  Lemma sumw_unvis_le : forall v u, sumw (unvis v u) <= sumw u.
  Proof.
    intros v u; induction u as [|x r IH]; [apply le_n|].
    rewrite unvis_cons.
    destruct (negb (mem x v)); rewrite ?sumw_cons; lia.
  Qed.

  Lemma sumw_unvis_visit : forall pkg v u, mem pkg v = false ->
    sumw (unvis (pkg :: v) u) + (if mem pkg u then List.length (olist (imports pkg)) else 0)
    <= sumw (unvis v u).
  Proof.
    intros pkg v u Hv; induction u as [|x r IH]; [apply le_n|].
    rewrite !unvis_cons. cbn [mem]. rewrite (String.eqb_sym pkg x).
    destruct (String.eqb_spec x pkg) as [->|E]; cbn [orb negb].
    - rewrite Hv. cbn [negb]. rewrite sumw_cons. destruct (mem pkg r); lia.
    - destruct (negb (mem x v)); rewrite ?sumw_cons; lia.
  Qed.

  Lemma discover_spec : forall top, universe_ok top -> forall f todo d,
    DInv top todo d -> List.length todo + sumw (unvis (vis d) universe) < f ->
    exists d', discover imports f todo d = Some d' /\ DInv top [] d'.
  Proof.
    intros top HU; induction f as [|f IH]; intros todo d HI Hf; [lia|].
    simpl. destruct todo as [|pkg rest]; [eauto|].
    destruct HI as (Ht & Hnd & Hdeps & Hcl & Htop). simpl in Hf. fold (vis d).
    destruct (mem pkg (vis d)) eqn:Hm.
    - (* already visited: the same packages are seen *)
      apply mem_In in Hm. apply IH; [|lia].
      assert (Hs : forall x, In x (vis d ++ pkg :: rest) -> In x (vis d ++ rest)).
      { intros x. rewrite !in_app_iff. intros [H|[<-|H]]; auto. }
      split; [|repeat split; eauto].
      intros x Hx. apply Ht. apply in_app_or in Hx as [H|H]; apply in_or_app; simpl; auto.
    - (* a new package, script or native: its imports are seen as well; all of the invariant but the clause on
         deps is independent of the entries made for it *)
      assert (Hrp : reach top pkg) by (apply Ht, in_elt).
      assert (Hnew : forall b dp,
                (forall p, aget p dp = if mem p (pkg :: vis d) then imports p else None) ->
                exists d', discover imports f (rev (olist (imports pkg)) ++ rest) (mkDisc ((pkg, b) :: packages d) dp) = Some d' /\
                           DInv top [] d').
      { intros b dp Hdp. apply IH; unfold DInv, vis; simpl; fold (vis d).
        - assert (Hs : forall x, pkg = x \/ In x (vis d ++ rev (olist (imports pkg)) ++ rest) <->
                                 In x (vis d ++ pkg :: rest) \/ edge pkg x).
          { intros x. rewrite edge_olist, !in_app_iff, <- in_rev. simpl. split; [intros [H|[H|[H|H]]]|intros [[H|[H|H]]|H]]; auto. }
          apply mem_notIn in Hm. split; [|split; [constructor; auto|split; [exact Hdp|split]]].
          + intros x Hx. apply Hs in Hx as [Hx|He]; [apply Ht, Hx|exact (reach_step top pkg x Hrp He)].
          + intros p q [<-|Hp] He; apply Hs; eauto.
          + apply Hs. auto.
        - pose proof (sumw_unvis_visit pkg (vis d) universe Hm) as Hw.
          rewrite (proj2 (mem_In _ _) (HU _ Hrp)) in Hw. rewrite app_length, rev_length. lia. }
      destruct (imports pkg) as [imps|] eqn:Hi; apply Hnew; intros p; simpl;
        (destruct (String.eqb_spec p pkg) as [->|E]; simpl; [|apply Hdeps]).
      + congruence.
      + rewrite Hdeps, Hm. congruence.
  Qed.

  (* one unit for the top package, one per import entry of the universe, one to see the empty worklist *)
  Lemma discover_total : forall top b, universe_ok top -> 2 + sumw universe <= b ->
    exists d, discover imports b [top] (mkDisc [] []) = Some d /\
              NoDup (vis d) /\
              (forall p, In p (vis d) <-> reach top p) /\
              (forall p, In p (vis d) -> aget p (deps d) = imports p).
  Proof.
    intros top b HU Hb.
    destruct (discover_spec top HU b [top] (mkDisc [] [])) as (d & Hd & Hv & Hnd & Hdeps & Hcl & Htop).
    - unfold DInv, vis; simpl. repeat split; auto; try tauto; [intros x [<-|[]]|]; constructor.
    - pose proof (sumw_unvis_le [] universe). unfold vis; simpl. lia.
    - rewrite app_nil_r in *. exists d. repeat split; auto.
      + intros Hr. induction Hr as [|p q Hr IHr He]; eauto.
      + intros p Hp. rewrite Hdeps. apply mem_In in Hp. rewrite Hp. reflexivity.
  Qed.

  (* ordering loop: the entry of a remaining key in the dependency map lists its imports among the remaining keys *)
  Definition OInv (top : string) (keys : list string) (dp : list (string * list string)) : Prop :=
    NoDup keys /\
    (forall k, In k keys -> forall q, In q (olist (aget k dp)) <-> edge k q /\ In q keys) /\
    (forall k, In k keys -> reach top k).

  Lemma OInv_step : forall top keys dp pkg, OInv top keys dp ->
    OInv top (remove_str pkg keys) (map (fun e => (fst e, remove_str pkg (snd e))) (adel pkg dp)).
  Proof.
    intros top keys dp pkg (Hnd & Hget & Hr).
    split; [apply NoDup_remove_str, Hnd|]. split.
    - intros k Hk q. apply In_remove_str in Hk. destruct Hk as [Hk Hne].
      rewrite aget_step. destruct (String.eqb_spec k pkg) as [E1|E1]; [congruence|].
      rewrite !In_remove_str, (Hget k Hk). tauto.
    - intros k Hk. apply In_remove_str in Hk. apply Hr. tauto.
  Qed.

  (* a nonempty set of reachable packages each of which imports a member of the set contains a cycle: a walk
     through the set meets itself before it is longer than the set *)
  Lemma no_sink_cyclic : forall top keys, keys <> [] -> (forall k, In k keys -> reach top k) ->
    (forall k, In k keys -> exists k', edge k k' /\ In k' keys) -> cyclic top.
  Proof.
    intros top keys Hne Hr Hsucc.
    assert (Hwalk : forall n k, In k keys -> cyclic top \/
              exists path, List.length path = n /\ chain k path /\ incl (k :: path) keys /\ NoDup (k :: path)).
    { induction n as [|n IHn]; intros k Hk.
      - right. exists []. split; [reflexivity|]. split; [exact I|]. split.
        + intros x [<-|[]]. exact Hk.
        + constructor; [tauto | constructor].
      - destruct (Hsucc k Hk) as (k' & He & Hk').
        destruct (IHn k' Hk') as [HC|(path & Hl & Hc & Hinc & HN)]; [left; exact HC|].
        destruct (in_dec string_dec k (k' :: path)) as [Hin|Hnin].
        + left. apply in_split in Hin. destruct Hin as (m1 & m2 & E).
          apply cyclic_iff. exists k, m1. split; [apply Hr, Hk|].
          apply chain_app_l with m2. rewrite <- app_assoc. simpl. rewrite <- E. split; assumption.
        + right. exists (k' :: path). split; [simpl; congruence|]. split; [split; assumption|]. split.
          * intros x [<-|Hx]; [exact Hk | apply Hinc, Hx].
          * constructor; assumption. }
    destruct keys as [|k0 ks]; [congruence|].
    destruct (Hwalk (List.length (k0 :: ks)) k0 (or_introl eq_refl)) as [HC|(path & Hl & _ & Hinc & HN)]; [exact HC|].
    apply NoDup_incl_length with (l' := k0 :: ks) in HN; [simpl in HN, Hl; lia | exact Hinc].
  Qed.

  Lemma order_loop_spec : forall top n keys dp,
    List.length keys <= n -> OInv top keys dp ->
    match order_loop n keys dp with
    | Some l => NoDup l /\ (forall x, In x l <-> In x keys) /\
                (forall l1 p l2, l = (l1 ++ p :: l2)%list -> forall q, edge p q -> In q keys -> In q l1)
    | None => cyclic top
    end.
  Proof.
    intros top; induction n as [|n IH]; intros [|k0 ks] dp Hlen HI.
    1, 3: rewrite order_loop_nil; split; [constructor|]; split; [tauto|]; intros [|] ? ? [=].
    - simpl in Hlen. lia.
    - cbn [order_loop]. remember (k0 :: ks) as keys eqn:Ek.
      pose proof (first_ready_spec keys dp) as Hfr. pose proof HI as (_ & Hget & Hr).
      destruct (first_ready keys dp) as [pkg|].
      + (* pkg is emitted: none of its imports is among the keys *)
        destruct Hfr as [Hin Hag].
        assert (Hlen' : List.length (remove_str pkg keys) <= n).
        { rewrite remove_str_remove. pose proof (remove_length_lt string_dec keys pkg Hin). lia. }
        pose proof (IH _ _ Hlen' (OInv_step top keys dp pkg HI)) as HS.
        destruct (order_loop n (remove_str pkg keys) _) as [r|]; [|exact HS].
        destruct HS as (Hnd & Hiff & Hsplit).
        split; [|split].
        * constructor; auto. rewrite Hiff, In_remove_str. tauto.
        * intros x. simpl. rewrite Hiff, In_remove_str.
          destruct (string_dec x pkg) as [->|E1]; [tauto | intuition congruence].
        * intros l1 p l2 Heq q He Hq. destruct l1 as [|a l1]; injection Heq as <- Heq.
          -- assert (H : In q (olist (aget pkg dp))) by (apply (Hget pkg Hin); auto).
             rewrite Hag in H. destruct H.
          -- destruct (string_dec q pkg) as [->|E1]; [left; reflexivity|].
             right. apply (Hsplit l1 p l2 Heq q He). apply In_remove_str. auto.
      + (* stuck: every key still waits for a key *)
        apply (no_sink_cyclic top keys); [subst keys; discriminate | exact Hr |].
        intros k Hk. specialize (Hfr k Hk).
        destruct (olist (aget k dp)) as [|x r] eqn:Ha; [congruence|].
        exists x. apply (Hget k Hk). rewrite Ha. left. reflexivity.
  Qed.

  (* a valid order excludes cycles: along a chain every package lies before its predecessor *)
  Lemma chain_before : forall top l, valid_order top l -> forall path a z l1 l2,
    l = (l1 ++ a :: l2)%list -> chain a (path ++ [z]) -> In z l1.
  Proof.
    intros top l (_ & _ & Hdep). induction path as [|b r IH]; intros a z l1 l2 E [He Hc].
    - exact (Hdep l1 a l2 E z He).
    - apply (Hdep l1 a l2 E) in He. apply in_split in He. destruct He as (m1 & m2 & ->).
      rewrite <- app_assoc in E. apply in_or_app. left. exact (IH b z m1 _ E Hc).
  Qed.

  Lemma valid_order_not_cyclic : forall top l, valid_order top l -> cyclic top -> False.
  Proof.
    intros top l HV HC. apply cyclic_iff in HC. destruct HC as (p & m & Hr & Hc).
    assert (Hp : In p l) by (apply HV, Hr).
    apply in_split in Hp. destruct Hp as (l1 & l2 & E).
    pose proof (chain_before top l HV _ _ _ _ _ E Hc) as H.
    destruct HV as (Hnd & _). rewrite E in Hnd.
    apply (NoDup_app_disjoint _ _ p Hnd H). left. reflexivity.
  Qed.

  Lemma load_spec : forall top b, universe_ok top -> 2 + sumw universe <= b ->
    match load imports b top with
    | LoadOk l => valid_order top l
    | LoadCycle => cyclic top
    | LoadFuel => False
    end.
  Proof.
    intros top b HU Hb.
    destruct (discover_total top b HU Hb) as (d & Hd & Hnd & Hiff & Hdeps).
    unfold load. rewrite Hd. fold (vis d).
    set (keys := sort_keys (vis d)).
    assert (Hk : forall k, In k keys <-> reach top k).
    { intros k. unfold keys. rewrite sort_keys_perm. apply Hiff. }
    assert (Hcl : forall k q, In k keys -> edge k q -> In q keys).
    { intros k q Hk' He. apply Hk. apply reach_step with k; [apply Hk, Hk' | exact He]. }
    assert (HI : OInv top keys (deps d)).
    { split; [unfold keys; rewrite sort_keys_perm; exact Hnd|]. split; [|apply Hk].
      intros k Hk' q. rewrite Hdeps by (apply Hiff, Hk, Hk'). rewrite <- edge_olist.
      pose proof (Hcl k q Hk'). tauto. }
    pose proof (order_loop_spec top _ keys (deps d) (le_n _) HI) as HS.
    destruct (order_loop (List.length keys) keys (deps d)) as [l|]; [|exact HS].
    destruct HS as (Hnd' & Hiff' & Hsplit). split; [exact Hnd'|]. split.
    - intros p. rewrite Hiff'. apply Hk.
    - intros l1 p l2 Heq q He. apply (Hsplit l1 p l2 Heq q He), (Hcl p q); [|exact He].
      apply Hiff'. rewrite Heq. apply in_elt.
  Qed.

  (* budget also pays one unit per package of the universe, which the loop does not need *)
  Lemma load_budget : forall top b, universe_ok top -> budget <= b ->
    match load imports b top with
    | LoadOk l => valid_order top l
    | LoadCycle => cyclic top
    | LoadFuel => False
    end.
  Proof.
    intros top b HU Hb. apply load_spec; [exact HU|]. revert Hb.
    assert (Hu : In top universe) by (apply HU; constructor).
    unfold budget. fold (sumw universe). destruct universe; [destruct Hu | simpl; lia].
  Qed.

  Theorem c15_no_fuel : forall top b, universe_ok top -> budget <= b -> load imports b top <> LoadFuel.
  Proof.
    intros top b HU Hb H. pose proof (load_budget top b HU Hb) as S. rewrite H in S. exact S.
  Qed.

  Theorem c15_order : forall top b l, universe_ok top -> budget <= b -> load imports b top = LoadOk l -> valid_order top l.
  Proof.
    intros top b l HU Hb H. pose proof (load_budget top b HU Hb) as S. rewrite H in S. exact S.
  Qed.

  Theorem c15_cycle : forall top b, universe_ok top -> budget <= b -> cyclic top -> load imports b top = LoadCycle.
  Proof.
    intros top b HU Hb HC. pose proof (load_budget top b HU Hb) as S.
    destruct (load imports b top) as [l| |]; [|reflexivity|destruct S].
    destruct (valid_order_not_cyclic top l S HC).
  Qed.

  Theorem c15_acyclic : forall top b, universe_ok top -> budget <= b -> ~ cyclic top -> exists l, load imports b top = LoadOk l.
  Proof.
    intros top b HU Hb HC. pose proof (load_budget top b HU Hb) as S.
    destruct (load imports b top) as [l| |]; [eauto|tauto|destruct S].
  Qed.

  Lemma in_run_events : forall nf l x, In x (run_events nf l) -> In x l.
  Proof.
    intros nf l x H. unfold run_events in H. apply in_flat_map in H. destruct H as (p & Hp & Hx).
    apply repeat_spec in Hx. subst; auto.
  Qed.

  Lemma run_events_app : forall nf a b, run_events nf (a ++ b) = (run_events nf a ++ run_events nf b)%list.
  Proof. intros; unfold run_events; apply flat_map_app. Qed.

  (* the code that runs: every piece of code (top-level code of each file, init) of an imported package runs
     before any piece of code of its importer *)
  Theorem c15_events : forall top l nf, valid_order top l -> forall p q, In p l -> edge p q ->
    forall pre post, run_events nf l = (pre ++ p :: post)%list -> ~ In q post.
  Proof.
    intros top l nf (Hnd & _ & Hdep) p q Hp He pre post Hev Hq.
    apply in_split in Hp. destruct Hp as (l1 & l2 & ->).
    rewrite run_events_app in Hev.
    (* q lies in l1, and post within the events of p :: l2 *)
    apply (NoDup_app_disjoint _ _ q Hnd); [exact (Hdep l1 p l2 eq_refl q He)|].
    apply (in_run_events nf). apply (app_tail_incl _ _ _ _ _ Hev); [|exact Hq].
    intros Hin. apply in_run_events in Hin.
    apply (NoDup_app_disjoint _ _ p Hnd Hin). left. reflexivity.
  Qed.

  Lemma count_occ_run_events : forall nf l p,
    count_occ string_dec (run_events nf l) p = count_occ string_dec l p * S (nf p).
  Proof.
    intros nf l p; induction l as [|a l IH]; [reflexivity|].
    change (run_events nf (a :: l)) with (repeat a (S (nf a)) ++ run_events nf l)%list.
    rewrite count_occ_app, IH. destruct (string_dec a p) as [->|Hne].
    - rewrite count_occ_repeat_eq, count_occ_cons_eq by reflexivity. reflexivity.
    - rewrite count_occ_repeat_neq, count_occ_cons_neq by congruence. reflexivity.
  Qed.

  (* and each package's code runs exactly once: S (nf p) events, one per file with top-level code and one for init *)
  Theorem c15_events_once : forall top l nf, valid_order top l -> forall p, In p l ->
    count_occ string_dec (run_events nf l) p = S (nf p).
  Proof.
    intros top l nf (Hnd & _) p Hp.
    rewrite count_occ_run_events, (proj1 (NoDup_count_occ' string_dec l) Hnd p Hp). apply Nat.mul_1_l.
  Qed.
End Spec.

Print Assumptions c15_no_fuel.
Print Assumptions c15_order.
Print Assumptions c15_cycle.
Print Assumptions c15_acyclic.
