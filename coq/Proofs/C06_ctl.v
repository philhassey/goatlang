(* C06 main proof: the code compile_ctl produces drives the abstract machine to exactly
   the program point Go designates for every outcome of every statement. *)
From Coq Require Import ZArith List Bool Lia.
From GV Require Import GoSpec.GoCtl Model.Ctl Proofs.C06_base.
Import ListNotations.
Open Scope Z_scope.

Section Ctl.
  Variable orc : oracle.
  Notation star := (star orc).
  Notation reaches := (reaches orc).
  Notation post_ok := (post_ok orc).

  Ltac step_with H :=
    eapply star_step; [unfold step; cbn [Ctl.pc Ctl.stk Ctl.sl Ctl.ctr]; rewrite H; cbn; reflexivity |].

  Ltac lens := repeat (rewrite len_app || rewrite len_cons || rewrite len_nil || rewrite len_rewrite).

  Ltac split_carries H :=
    repeat (apply carries_cons in H; let F := fresh "F" in destruct H as [F H]; cbn [carried_instr] in F).

  Lemma star_jf : forall C q d b tr st s qt qf, fetch C q = Some (CJumpFalse d) -> qt = q + 1 -> qf = q + d + 1 ->
    star C (mkCfg q tr (SBool b :: st) s) (mkCfg (if b then qt else qf) tr st s).
  Proof. intros; subst. eapply star_one. unfold step; cbn [Ctl.pc Ctl.stk]. rewrite H. reflexivity. Qed.

  Lemma star_jt : forall C q d b tr st s qt qf, fetch C q = Some (CJumpTrue d) -> qt = q + d + 1 -> qf = q + 1 ->
    star C (mkCfg q tr (SBool b :: st) s) (mkCfg (if b then qt else qf) tr st s).
  Proof. intros; subst. eapply star_one. unfold step; cbn [Ctl.pc Ctl.stk]. rewrite H. reflexivity. Qed.

  Lemma star_jump : forall C q q' d tr st s, fetch C q = Some (CJump d) -> q' = q + d + 1 ->
    star C (mkCfg q tr st s) (mkCfg q' tr st s).
  Proof. intros; subst. eapply star_one. unfold step; cbn [Ctl.pc]. rewrite H. reflexivity. Qed.

  (* PUSH k; GLOBALGET f; CALL 1 n *)
  Lemma run_call : forall C p f k bt ct tr stk s,
    carries C p (c_call f k (match f with FEmit => 0 | _ => 1 end)) bt ct ->
    star C (mkCfg p tr stk s)
      (match f with
       | FEmit => mkCfg (p + 3) (EvEmit k :: tr) stk s
       | FCond => mkCfg (p + 3) (EvCond k :: tr) (SBool (o_cond orc tr k) :: stk) s
       | FLen => mkCfg (p + 3) (EvRange k :: tr) (SLen (o_len orc tr k) :: stk) s
       | FTag => mkCfg (p + 3) (EvTag k :: tr) (SInt (o_tag orc tr k) :: stk) s
       end).
  Proof.
    intros C p f k bt ct tr stk s H. unfold c_call in H. split_carries H.
    step_with F. step_with F0. replace (p + 3) with (p + 1 + 1 + 1) by lia.
    destruct f; step_with F1; constructor.
  Qed.

  Lemma run_simple : forall C p o bt ct tr stk s, carries C p (c_simple o) bt ct ->
    star C (mkCfg p tr stk s) (mkCfg (p + len (c_simple o)) (do_emit o tr) stk s).
  Proof.
    intros C p o bt ct tr stk s H. destruct o; cbn [c_simple do_emit] in *.
    - exact (run_call C p FEmit _ bt ct tr stk s H).
    - rewrite len_nil, Z.add_0_r. constructor.
  Qed.

  Definition tag_ok (tag : option Z) (isv : bool) (v : nat) (s : nat -> sval) : Prop :=
    match tag with Some t => isv = true /\ s v = SInt t | None => isv = false end.

  Lemma len_one_guard : forall isv v g, len (one_guard isv v g) = 3.
  Proof. intros; destruct isv; reflexivity. Qed.

  Lemma run_one_guard : forall C p tag isv v g bt ct tr stk s,
    tag_ok tag isv v s -> carries C p (one_guard isv v g) bt ct ->
    star C (mkCfg p tr stk s)
           (mkCfg (p + 3) (match tag with None => EvCond g :: tr | Some _ => tr end)
                  (SBool (match tag with None => o_cond orc tr g | Some t => t =? g end) :: stk) s).
  Proof.
    intros C p tag isv v g bt ct tr stk s T H. destruct tag as [t|]; cbn [tag_ok] in T.
    - destruct T as [-> Hv]. cbn [one_guard] in H. split_carries H.
      step_with F. step_with F0. rewrite Hv. step_with F1.
      replace (p + 1 + 1 + 1) with (p + 3) by lia. rewrite Z.eqb_sym. constructor.
    - subst isv. exact (run_call C p FCond g bt ct tr stk s H).
  Qed.

  Lemma eval_guards_cons : forall tag g r tr,
    eval_guards orc tag (g :: r) tr =
    match tag with
    | None => if o_cond orc tr g then (true, EvCond g :: tr) else eval_guards orc tag r (EvCond g :: tr)
    | Some t => if t =? g then (true, tr) else eval_guards orc tag r tr
    end.
  Proof. reflexivity. Qed.

  (* the alternatives after the first, entered with the verdict b so far on the stack: OR skips the next
     alternative when b holds, pops b and evaluates the alternative otherwise *)
  Lemma run_more : forall gs C p tag isv v bt ct tr0 stk s (b : bool) m tr1,
    (if b then (true, tr0) else eval_guards orc tag gs tr0) = (m, tr1) ->
    tag_ok tag isv v s -> carries C p (more_guards isv v gs) bt ct ->
    star C (mkCfg p tr0 (SBool b :: stk) s) (mkCfg (p + len (more_guards isv v gs)) tr1 (SBool m :: stk) s).
  Proof.
    induction gs as [|g gs IH]; intros C p tag isv v bt ct tr0 stk s b m tr1 E T H; cbn [more_guards] in *.
    - rewrite len_nil, Z.add_0_r. destruct b; injection E as <- <-; constructor.
    - rewrite <- app_comm_cons in H. split_carries H. apply carries_app in H as [H1 H2]. rewrite len_one_guard in *.
      rewrite <- app_comm_cons, len_cons, len_app, len_one_guard.
      replace (p + (1 + (3 + len (more_guards isv v gs)))) with (p + 1 + 3 + len (more_guards isv v gs)) by lia.
      destruct b; step_with F.
      + replace (p + 3 + 1) with (p + 1 + 3) by lia. exact (IH C _ tag isv v bt ct tr0 stk s true m tr1 E T H2).
      + eapply star_trans; [exact (run_one_guard C (p + 1) tag isv v g bt ct tr0 stk s T H1)|].
        eapply IH; eauto. destruct tag; exact E.
  Qed.

  Lemma run_guards : forall gs g C p tag isv v bt ct tr stk s m tr1,
    eval_guards orc tag (g :: gs) tr = (m, tr1) ->
    tag_ok tag isv v s -> carries C p (guards isv v g gs) bt ct ->
    star C (mkCfg p tr stk s) (mkCfg (p + len (guards isv v g gs)) tr1 (SBool m :: stk) s).
  Proof.
    unfold guards. intros gs g C p tag isv v bt ct tr stk s m tr1 E T H.
    apply carries_app in H as [H1 H2]. rewrite len_app, len_one_guard in *. rewrite Z.add_assoc.
    eapply star_trans; [exact (run_one_guard C p tag isv v g bt ct tr stk s T H1)|].
    eapply run_more; eauto. destruct tag; exact E.
  Qed.

  Lemma exec_S : forall f s tr, exec orc (S f) s tr =
    match s with
    | Emit l => Some (Normal, EvEmit l :: tr)
    | Break => Some (Brk, tr)
    | Continue => Some (Cont, tr)
    | Return => Some (Ret, tr)
    | If init c thn els =>
        if o_cond orc (do_emit init tr) c then exec_block orc f thn (EvCond c :: do_emit init tr)
        else exec_block orc f els (EvCond c :: do_emit init tr)
    | For init cond post body => exec_for orc f cond post body (do_emit init tr)
    | Range k body => exec_range orc f (o_len orc tr k) body (EvRange k :: tr)
    | Switch tag cs _ dflt =>
        let r := match tag with
                 | None => exec_cases orc f None cs dflt tr
                 | Some k => exec_cases orc f (Some (o_tag orc tr k)) cs dflt (EvTag k :: tr)
                 end in
        match r with Some (Brk, tr') => Some (Normal, tr') | _ => r end
    end.
  Proof. reflexivity. Qed.

  Lemma exec_block_S : forall f b tr, exec_block orc (S f) b tr =
    match b with
    | BNil => Some (Normal, tr)
    | BCons s b' => match exec orc f s tr with Some (Normal, tr1) => exec_block orc f b' tr1 | r => r end
    end.
  Proof. reflexivity. Qed.

  Lemma exec_for_S : forall f cond post body tr, exec_for orc (S f) cond post body tr =
    let '(go, tr1) := match cond with None => (true, tr) | Some c => (o_cond orc tr c, EvCond c :: tr) end in
    if go then
      match exec_block orc f body tr1 with
      | Some (Normal, tr2) | Some (Cont, tr2) => exec_for orc f cond post body (do_emit post tr2)
      | Some (Brk, tr2) => Some (Normal, tr2)
      | Some (Ret, tr2) => Some (Ret, tr2)
      | None => None
      end
    else Some (Normal, tr1).
  Proof. reflexivity. Qed.

  Lemma exec_range_S : forall f n body tr, exec_range orc (S f) n body tr =
    match n with
    | O => Some (Normal, tr)
    | S n' =>
        match exec_block orc f body tr with
        | Some (Normal, tr2) | Some (Cont, tr2) => exec_range orc f n' body tr2
        | Some (Brk, tr2) => Some (Normal, tr2)
        | Some (Ret, tr2) => Some (Ret, tr2)
        | None => None
        end
    end.
  Proof. reflexivity. Qed.

  Lemma exec_cases_S : forall f tag cs dflt tr, exec_cases orc (S f) tag cs dflt tr =
    match cs with
    | CNil => exec_block orc f dflt tr
    | CCons g gs body cs' =>
        let '(m, tr1) := eval_guards orc tag (g :: gs) tr in
        if m then exec_block orc f body tr1 else exec_cases orc f tag cs' dflt tr1
    end.
  Proof. reflexivity. Qed.

  Definition stmt_ok (f : nat) (s : stmt) : Prop := forall tr out tr', exec orc f s tr = Some (out, tr') ->
    forall C p L bt ct stk sl, carries C p (compile L s) bt ct ->
    post_ok C p (p + len (compile L s)) tr stk sl L bt ct out tr'.

  Definition P_stmt (f : nat) : Prop := forall s, stmt_ok f s.

  Definition P_block (f : nat) : Prop := forall b tr out tr', exec_block orc f b tr = Some (out, tr') ->
    forall C p L bt ct stk sl, carries C p (compile_block L b) bt ct ->
    post_ok C p (p + len (compile_block L b)) tr stk sl L bt ct out tr'.

  (* The loop is described by what its head does, not by its code: after the post statement the machine
     gets to pentry, and from pentry it evaluates the condition (if any) and goes to the body or to the end.
     With a condition pentry is the test after the post statement; without one it is the body itself. *)
  Definition P_for (f : nat) : Prop := forall cond post body tr out tr',
    exec_for orc f cond post body tr = Some (out, tr') ->
    forall C L pentry pbody pend bt ct bt1 ct1 stk sl,
    let pcont := pbody + len (compile_block L body) in
    carries C pbody (compile_block L body) (Some pend) (Some pcont) ->
    carries C pcont (c_simple post) bt1 ct1 ->
    (forall t st s, star C (mkCfg (pcont + len (c_simple post)) t st s) (mkCfg pentry t st s)) ->
    (forall t st s, star C (mkCfg pentry t st s)
       match cond with
       | Some k => mkCfg (if o_cond orc t k then pbody else pend) (EvCond k :: t) st s
       | None => mkCfg pbody t st s
       end) ->
    post_ok C pentry pend tr stk sl L bt ct out tr'.

  (* ITER names slot L + 1 twice: the skeleton's range has a blank key and a blank value, which share one slot
     (Model/Ctl.v, slots) *)
  Definition P_range (f : nat) : Prop := forall n body tr out tr',
    exec_range orc f n body tr = Some (out, tr') ->
    forall C L pbody bt ct stk sl,
    let piter := pbody + len (compile_block (L + 2) body) in
    carries C pbody (compile_block (L + 2) body) (Some (piter + 1)) (Some piter) ->
    fetch C piter = Some (CIter L (L + 1) (L + 1) (pbody - piter - 1)) ->
    sl L = SCount n ->
    post_ok C piter (piter + 1) tr stk sl L bt ct out tr'.

  Definition P_cases (f : nat) : Prop := forall tag cs dflt tr out tr',
    exec_cases orc f tag cs dflt tr = Some (out, tr') ->
    forall C p isv v Lc Ld Lf bt0 ct stk sl,
    (Lf <= Lc)%nat -> (Lf <= Ld)%nat -> tag_ok tag isv v sl ->
    let ldef := len (compile_block Ld dflt) in
    carries C p (compile_cases isv v Lc ldef cs ++
                 rewrite (fun n => Some (ldef - n - 1)) (fun _ => None) 0 (compile_block Ld dflt)) bt0 ct ->
    let pend := p + len (compile_cases isv v Lc ldef cs) + ldef in
    post_ok C p pend tr stk sl Lf (Some pend) ct out tr'.

  Lemma ok_block_S : forall f, P_stmt f -> P_block f -> P_block (S f).
  Proof.
    intros f IHs IHb b tr out tr' E C p L bt ct stk sl H.
    rewrite exec_block_S in E. destruct b as [|s b']; cbn [compile_block] in *.
    - injection E as <- <-. rewrite len_nil, Z.add_0_r. apply reaches_refl.
    - apply carries_app in H as [H1 H2].
      destruct (exec orc f s tr) as [[o1 tr1]|] eqn:E1; [|discriminate].
      pose proof (IHs s tr o1 tr1 E1 C p L bt ct stk sl H1) as R1.
      destruct o1; [|injection E as <- <-; eapply post_ok_pend; [congruence | exact R1]..].
      (* Normal: go on with the rest *)
      destruct R1 as [s1 [S1 F1]]. eapply post_ok_step; [exact S1 | exact F1 | apply Nat.le_add_r |].
      rewrite len_app, Z.add_assoc. eapply IHb; eauto.
  Qed.

  (* One round of a loop whose body sits at pbody: break leaves for pend, return returns, and after a normal
     end or a continue the machine stands at the end of the body, where K says how the loop goes on. *)
  Lemma ok_round : forall f body tr K out tr' C pbody pend L Lb bt ct stk sl,
    P_block f ->
    match exec_block orc f body tr with
    | Some (Normal, tr2) | Some (Cont, tr2) => K tr2
    | Some (Brk, tr2) => Some (Normal, tr2)
    | Some (Ret, tr2) => Some (Ret, tr2)
    | None => None
    end = Some (out, tr') ->
    let pcont := pbody + len (compile_block Lb body) in
    carries C pbody (compile_block Lb body) (Some pend) (Some pcont) -> (L <= Lb)%nat ->
    (forall tr2 s2, K tr2 = Some (out, tr') -> (forall i, (i < Lb)%nat -> s2 i = sl i) ->
       post_ok C pcont pend tr2 stk s2 L bt ct out tr') ->
    post_ok C pbody pend tr stk sl L bt ct out tr'.
  Proof.
    intros f body tr K out tr' C pbody pend L Lb bt ct stk sl IHb E pcont Hbody HL Next.
    destruct (exec_block orc f body tr) as [[o2 tr2]|] eqn:E2; [|discriminate].
    pose proof (IHb body tr o2 tr2 E2 C pbody Lb _ _ stk sl Hbody) as R.
    destruct o2.
    1, 3: destruct R as [s2 [S2 F2]];
          eapply post_ok_step; [exact S2 | intros; apply F2; lia | apply Nat.le_refl | apply Next; assumption].
    all: injection E as <- <-; eapply post_ok_weaken; [exact R | exact HL].
  Qed.

  Lemma ok_for_S : forall f, P_block f -> P_for f -> P_for (S f).
  Proof.
    intros f IHb IHf cond post body tr out tr' E C L pentry pbody pend bt ct bt1 ct1 stk sl pcont Hbody Hpost Htail Hentry.
    rewrite exec_for_S in E.
    destruct cond as [k|]; (eapply post_ok_star; [apply Hentry|]);
      [destruct (o_cond orc tr k); [|injection E as <- <-; apply reaches_refl]|].
    all: eapply (ok_round f body _ (fun tr2 => exec_for orc f _ post body (do_emit post tr2))); eauto.
    (* the post statement, back to the head, and the rest of the loop *)
    all: intros tr2 s2 E3 _; eapply post_ok_star;
      [eapply star_trans; [exact (run_simple C _ post bt1 ct1 tr2 stk s2 Hpost) | apply Htail] | eapply IHf; eauto].
  Qed.

  Lemma ok_range_S : forall f, P_block f -> P_range f -> P_range (S f).
  Proof.
    intros f IHb IHr n body tr out tr' E C L pbody bt ct stk sl piter Hbody Hit Hn.
    rewrite exec_range_S in E.
    destruct n as [|n'].
    - injection E as <- <-. apply reaches_star.
      eapply star_one. unfold step; cbn [Ctl.pc Ctl.sl]. rewrite Hit, Hn. reflexivity.
    - (* one ITER step into the body *)
      set (sl1 := upd (upd (upd sl L (SCount n')) (L + 1) SJunk) (L + 1) SJunk).
      assert (S1 : star C (mkCfg piter tr stk sl) (mkCfg pbody tr stk sl1)).
      { eapply star_one. unfold step; cbn [Ctl.pc Ctl.sl]. rewrite Hit, Hn. cbn. unfold sl1. do 2 f_equal. lia. }
      assert (N1 : sl1 L = SCount n') by (unfold sl1; rewrite !upd_other by lia; apply upd_same).
      eapply post_ok_step; [exact S1 | intros i Hi; unfold sl1; rewrite !upd_other by lia; reflexivity | apply Nat.le_refl |].
      eapply (ok_round f body tr (exec_range orc f n' body)); eauto; [lia|].
      intros tr2 s2 E3 F2. eapply IHr; eauto. rewrite F2 by lia. exact N1.
  Qed.

  Lemma ok_cases_S : forall f, P_block f -> P_cases f -> P_cases (S f).
  Proof.
    intros f IHb IHc tag cs dflt tr out tr' E C p isv v Lc Ld Lf bt0 ct stk sl HLc HLd T ldef H pend.
    rewrite exec_cases_S in E. destruct cs as [|g gs body cs'].
    - (* no case matched: the default block; its breaks jump to its end *)
      cbn [compile_cases app] in *. subst pend. rewrite len_nil, Z.add_0_r.
      eapply post_ok_weaken; [|exact HLd].
      eapply IHb; eauto.
      eapply carries_rewrite; [exact H | apply rw_ok_some; intros; lia | apply rw_ok_none].
    - cbn [compile_cases] in H, pend.
      set (out' := compile_cases isv v Lc ldef cs') in *.
      set (cs0 := compile_block (Lc + slots_cases cs') body) in *.
      rewrite <- !app_assoc in H. apply carries_app in H as [Hg H].
      cbn [app] in H. split_carries H. apply carries_app in H as [HB H]. split_carries H.
      rewrite len_rewrite in *.
      destruct (eval_guards orc tag (g :: gs) tr) as [m tr1] eqn:EG.
      set (pj := p + len (guards isv v g gs)) in *.
      assert (Hpend : pend = pj + 1 + len cs0 + 1 + len out' + ldef).
      { subst pend pj. lens. fold out'. lia. }
      eapply post_ok_star.
      { eapply star_trans; [exact (run_guards gs g C p tag isv v bt0 ct tr stk sl m tr1 EG T Hg)|].
        eapply star_jf with (qt := pj + 1) (qf := pj + 1 + len cs0 + 1); [exact F | reflexivity | lia]. }
      destruct m.
      + (* this case: run its block; Normal ends at the JUMP to the end *)
        eapply post_ok_weaken with (L := (Lc + slots_cases cs')%nat); [|lia].
        assert (HB' : carries C (pj + 1) cs0 (Some pend) ct).
        { eapply carries_rewrite; [exact HB | apply rw_ok_some; intros; lia | apply rw_ok_none]. }
        eapply post_ok_then; [eapply IHb; eauto|]. intros. eapply star_jump; [exact F0 | fold cs0; lia].
      + (* next case *)
        pose proof (IHc tag cs' dflt tr1 out tr' E C _ isv v Lc Ld Lf bt0 ct stk sl HLc HLd T H) as RN.
        cbn zeta in RN. fold ldef out' in RN. rewrite <- Hpend in RN. exact RN.
  Qed.

  Lemma ok_if : forall f init c thn els, P_block f -> stmt_ok (S f) (If init c thn els).
  Proof.
    intros f init c thn els IHb tr out tr' E C p L bt ct stk sl H. rewrite exec_S in E. cbn [compile] in *.
    set (thenI := compile_block L thn) in *. set (elseI := compile_block (L + slots_block thn) els) in *.
    apply carries_app in H as [Hi H]. apply carries_app in H as [Hc H].
    rewrite !len_app. change (len (c_cond c)) with 3 in *.
    set (q := p + len (c_simple init) + 3) in *.
    (* with or without an else part: JUMPFALSE at q to the else block, which ends where the statement ends,
       and the end of the then block leads there too (at once, or by the JUMP over the else block) *)
    set (rest := if len elseI =? 0 then _ else _) in *.
    assert (Lay : carries C (q + 1) thenI bt ct /\ carries C (q + len rest - len elseI) elseI bt ct /\
                  fetch C q = Some (CJumpFalse (len rest - len elseI - 1)) /\
                  forall t st s, star C (mkCfg (q + 1 + len thenI) t st s) (mkCfg (q + len rest) t st s)).
    { subst rest. destruct (len elseI =? 0) eqn:Eel; split_carries H; rewrite len_cons.
      - apply Z.eqb_eq in Eel. rewrite Eel. apply len_0_nil in Eel. rewrite Eel.
        split; [exact H|]. split; [apply carries_nil|]. split; [rewrite F; do 2 f_equal; lia|].
        intros. rewrite Z.add_assoc. constructor.
      - apply carries_app in H as [Ht H]. split_carries H. rewrite len_app, len_cons.
        split; [exact Ht|]. split; [|split].
        + replace (q + _ - len elseI) with (q + 1 + len thenI + 1) by lia. exact H.
        + rewrite F. do 2 f_equal. lia.
        + intros. eapply star_jump; [exact F0 | lia]. }
    destruct Lay as (Ht & He & Fj & Jt).
    eapply post_ok_star.
    { eapply star_trans; [exact (run_simple C p init bt ct tr stk sl Hi)|].
      eapply star_trans; [exact (run_call C _ FCond c bt ct _ stk sl Hc)|].
      eapply star_jf with (qf := q + len rest - len elseI); [exact Fj | reflexivity | lia]. }
    apply post_ok_at with (pend' := q + len rest); [subst q; lia|].
    destruct (o_cond orc (do_emit init tr) c).
    - eapply post_ok_then; [|exact (fun t s1 => Jt t stk s1)]. eapply IHb; eauto.
    - eapply post_ok_weaken with (L := (L + slots_block thn)%nat); [|lia].
      eapply post_ok_at; [|eapply IHb; eauto]. unfold elseI; lia.
  Qed.

  Lemma ok_for : forall f init cond post body, P_for f -> stmt_ok (S f) (For init cond post body).
  Proof.
    intros f init cond post body IHf tr out tr' E C p L bt ct stk sl H. rewrite exec_S in E. cbn [compile] in *.
    set (block := compile_block L body) in *. set (pst := c_simple post) in *.
    apply carries_app in H as [Hi H].
    eapply post_ok_star; [exact (run_simple C p init bt ct tr stk sl Hi)|].
    set (q := p + len (c_simple init)) in *.
    destruct cond as [k|]; cbn [c_optcond] in *.
    - (* JUMP to the test; body; post; test; JUMPTRUE to the body *)
      change (len (c_cond k)) with 3 in *. change (0 <? 3) with true in *. cbv iota in *.
      cbn [app] in H. split_carries H. apply carries_app in H as [HB H]. rewrite len_rewrite in H.
      apply carries_app in H as [HP H]. apply carries_app in H as [HC H]. change (len (c_cond k)) with 3 in H.
      split_carries H.
      set (ptest := q + 1 + len block + len pst) in *.
      eapply post_ok_star; [eapply star_jump with (q' := ptest); [exact F | lia]|].
      lens. change (len (c_cond k)) with 3. apply post_ok_at with (pend' := ptest + 4); [lia|].
      eapply (IHf (Some k) post body _ out tr' E C L ptest (q + 1) (ptest + 4) bt ct bt ct stk sl); fold block pst.
      + eapply carries_rewrite; [exact HB | apply rw_ok_some; intros; lia..].
      + exact HP.
      + intros. constructor.
      + intros. eapply star_trans; [exact (run_call C _ FCond k bt ct t st s HC)|].
        eapply star_jt; [exact F0 | lia | lia].
    - (* body; post; JUMP to the body *)
      change (0 <? len []) with false in *. cbv iota in *. cbn [app] in H. rewrite len_nil in *.
      apply carries_app in H as [HB H]. rewrite len_rewrite in H. apply carries_app in H as [HP H]. split_carries H.
      lens. apply post_ok_at with (pend' := q + len block + len pst + 1); [lia|].
      eapply (IHf None post body _ out tr' E C L q q _ bt ct bt ct stk sl); fold block pst.
      + eapply carries_rewrite; [exact HB | apply rw_ok_some; intros; lia..].
      + exact HP.
      + intros. eapply star_jump; [exact F | lia].
      + intros. constructor.
  Qed.

  Lemma ok_range : forall f k body, P_range f -> stmt_ok (S f) (Range k body).
  Proof.
    intros f k body IHr tr out tr' E C p L bt ct stk sl H. rewrite exec_S in E. cbn [compile] in *.
    set (block := compile_block (L + 2) body) in *.
    apply carries_app in H as [Hl H]. change (len (c_len k)) with 3 in H.
    cbn [app] in H. split_carries H. apply carries_app in H as [HB H]. rewrite len_rewrite in H. split_carries H.
    (* the range expression, then RANGE stores the iterator and jumps to the ITER *)
    set (sl1 := upd sl L (SCount (o_len orc tr k))).
    assert (S1 : star C (mkCfg p tr stk sl) (mkCfg (p + 3 + 1 + len block) (EvRange k :: tr) stk sl1)).
    { eapply star_trans; [exact (run_call C p FLen k bt ct tr stk sl Hl)|].
      eapply star_one. unfold step; cbn [Ctl.pc Ctl.stk]. rewrite F. cbn. unfold sl1. do 2 f_equal. lia. }
    eapply post_ok_step; [exact S1 | intros i Hi; apply upd_other; lia | apply Nat.le_refl |].
    lens. change (len (c_len k)) with 3. apply post_ok_at with (pend' := p + 3 + 1 + len block + 1); [lia|].
    eapply (IHr _ body _ out tr' E C L (p + 3 + 1) bt ct stk sl1); fold block.
    - eapply carries_rewrite; [exact HB | apply rw_ok_some; intros; lia..].
    - rewrite F0. do 2 f_equal. lia.
    - apply upd_same.
  Qed.

  Lemma ok_switch : forall f tag cs dpos dflt, P_cases f -> stmt_ok (S f) (Switch tag cs dpos dflt).
  Proof.
    intros f tag cs dpos dflt IHc tr out tr' E C p L bt ct stk sl H. rewrite exec_S in E. cbn [compile] in *.
    set (isv := match tag with Some _ => true | None => false end) in *.
    set (L1 := if isv then (L + 1)%nat else L) in *.
    set (def0 := compile_block L1 dflt) in *.
    rewrite (len_rewrite def0) in *. set (ldef := len def0) in *.
    assert (HL1 : (L <= L1)%nat) by (subst L1; destruct isv; lia).
    set (out' := compile_cases isv L (L1 + slots_block dflt) ldef cs) in *.
    (* the cases and the default, entered at p0 with the tag (if any) in slot L; a break ends the switch *)
    assert (Core : forall p0 tr0 sl0 tg, tag_ok tg isv L sl0 ->
              carries C p0 (out' ++ rewrite (fun n => Some (len def0 - n - 1)) (fun _ => None) 0 def0) bt ct ->
              (let r := exec_cases orc f tg cs dflt tr0 in
               match r with Some (Brk, t') => Some (Normal, t') | _ => r end) = Some (out, tr') ->
              post_ok C p0 (p0 + len out' + ldef) tr0 stk sl0 L bt ct out tr').
    { intros p0 tr0 sl0 tg T Hc E0. cbv zeta in E0.
      destruct (exec_cases orc f tg cs dflt tr0) as [[o2 tr2]|] eqn:E2; [|discriminate].
      pose proof (IHc tg cs dflt tr0 o2 tr2 E2 C p0 isv L (L1 + slots_block dflt)%nat L1 L bt ct stk sl0
                      ltac:(lia) HL1 T Hc) as RC.
      destruct o2; inversion E0; subst; exact RC. }
    destruct tag as [k|].
    - rewrite <- app_assoc in H. apply carries_app in H as [Ht H]. change (len (c_tag k)) with 3 in H.
      cbn [app] in H. split_carries H.
      set (sl1 := upd sl L (SInt (o_tag orc tr k))).
      assert (S1 : star C (mkCfg p tr stk sl) (mkCfg (p + 3 + 1) (EvTag k :: tr) stk sl1)).
      { eapply star_trans; [exact (run_call C p FTag k bt ct tr stk sl Ht)|].
        eapply star_one. unfold step; cbn [Ctl.pc Ctl.stk]. rewrite F. reflexivity. }
      eapply post_ok_step; [exact S1 | intros i Hi; apply upd_other; lia | apply Nat.le_refl |].
      lens. change (len (c_tag k)) with 3. apply post_ok_at with (pend' := p + 3 + 1 + len out' + ldef); [lia|].
      apply (Core _ _ sl1 (Some (o_tag orc tr k))); [split; [reflexivity | apply upd_same] | exact H | exact E].
    - cbn [app] in *. rewrite len_app, len_rewrite, Z.add_assoc.
      eapply Core; eauto. reflexivity.
  Qed.

  Lemma run_placeholder : forall C p t tr stk sl L, fetch C p = Some (CJump (t - p - 1)) -> reaches C p tr stk sl t tr L.
  Proof. intros C p t tr stk sl L F. apply reaches_star. eapply star_jump; [exact F | lia]. Qed.

  Lemma ok_stmt_S : forall f, P_block f -> P_for f -> P_range f -> P_cases f -> P_stmt (S f).
  Proof.
    intros f IHb IHf IHr IHc [l|init c thn els|init cond post body|k body|tag cs dpos dflt| | |];
      [|apply ok_if, IHb|apply ok_for, IHf|apply ok_range, IHr|apply ok_switch, IHc|..];
      intros tr out tr' E C p L bt ct stk sl H; injection E as <- <-; cbn [C06_base.post_ok compile] in *.
    - apply reaches_star. exact (run_call C p FEmit _ bt ct tr stk sl H).
    - destruct bt as [t|]; [|exact I]. apply carries_cons in H as [F _]. apply run_placeholder, F.
    - destruct ct as [t|]; [|exact I]. apply carries_cons in H as [F _]. apply run_placeholder, F.
    - apply carries_cons in H as [F _]. exists p, 0. split; [apply reaches_refl | exact F].
  Qed.
End Ctl.
