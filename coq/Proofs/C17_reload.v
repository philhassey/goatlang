(* C17, part 2: signatures, what each of the five top-level instructions does, the invariant
   Inv of the reload machine, and where the declared function objects live and what they hold
   after one instruction and after a whole Load. *)
From Coq Require Import ZArith List Bool Lia.
From GV Require Import Model.Reload Proofs.C17_base.
Import ListNotations.
Open Scope Z_scope.

Definition tnames (S : sig) : list name := map fst (stypes S).
Definition vname (d : vdecl) : name := match d with VZero n _ => n | VSet n _ => n end.
Definition vnames (S : sig) : list name := map vname (svars S).

Definition key_ok (S : sig) (k : fkey) : Prop :=
  match k with KFunc n => In n (sfuncs S) | KMeth t m => In (t, m) (smethods S) end.

Record wf_sig (S : sig) : Prop := {
  wf_names : NoDup (tnames S ++ sfuncs S ++ vnames S);
  wf_meth : forall t m, In (t, m) (smethods S) -> In t (tnames S);
  wf_fields : forall t fs, In (t, fs) (stypes S) -> NoDup (map fst fs)
}.

Definition instr_key (i : instr) : option fkey :=
  match i with GlobalFunc n _ => Some (KFunc n) | SetMethod t m _ => Some (KMeth t m) | _ => None end.
Definition instr_body (i : instr) : body :=
  match i with GlobalFunc _ b | SetMethod _ _ b => b | _ => 0 end.
Definition writes (i : instr) : option name :=
  match i with GlobalFunc n _ | GlobalStruct n _ | GlobalZero n _ | GlobalSet n _ => Some n | SetMethod _ _ _ => None end.
Definition instr_ok (S : sig) (i : instr) : Prop :=
  match i with
  | GlobalFunc n _ => In n (sfuncs S)
  | SetMethod t m _ => In (t, m) (smethods S)
  | GlobalStruct t _ => In t (tnames S)
  | GlobalZero n _ | GlobalSet n _ => In n (vnames S)
  end.
Lemma instr_key_ok : forall S i k, instr_ok S i -> instr_key i = Some k -> key_ok S k.
Proof. destruct i; simpl; intros k OK IK; inv IK; exact OK. Qed.

Lemma fkey_dec : forall a b : fkey, {a = b} + {a <> b}.
Proof. decide equality; apply Z.eq_dec. Qed.
Definition key_is (i : instr) (k : fkey) : bool :=
  match instr_key i with Some k' => if fkey_dec k' k then true else false | None => false end.
Lemma key_is_true : forall i k, key_is i k = true <-> instr_key i = Some k.
Proof.
  unfold key_is. intros. destruct (instr_key i); [|split; discriminate].
  destruct (fkey_dec f k); split; intros; try congruence.
Qed.
Lemma key_is_false : forall i k, instr_key i <> Some k -> key_is i k = false.
Proof. intros. destruct (key_is i k) eqn:E; auto. apply key_is_true in E. contradiction. Qed.

Definition has_key (k : fkey) (is : list instr) : bool := existsb (fun i => key_is i k) is.
Lemma has_key_In : forall k is, (exists i, In i is /\ instr_key i = Some k) -> has_key k is = true.
Proof. intros k is (i & HI & IK). apply existsb_exists. exists i. split; auto. now apply key_is_true. Qed.

Definition key_name (k : fkey) : name := match k with KFunc n => n | KMeth t _ => t end.

(* the four levels of a version, in the order treeSort gives them *)
Definition Ts (S : sig) : list instr := map (fun tf => GlobalStruct (fst tf) (snd tf)) (stypes S).
Definition Ms (S : sig) (B : bodies) : list instr :=
  map (fun tm => SetMethod (fst tm) (snd tm) (mbody B (fst tm) (snd tm))) (smethods S).
Definition Fs (S : sig) (B : bodies) : list instr := map (fun n => GlobalFunc n (fbody B n)) (sfuncs S).
Definition Vs (S : sig) : list instr := map vinstr (svars S).
Lemma version_of_eq : forall S B, version_of S B = (Ts S ++ Ms S B ++ Fs S B ++ Vs S)%list.
Proof. reflexivity. Qed.

Lemma exec_GlobalFunc : forall st n b st', exec_instr st (GlobalFunc n b) = Some st' ->
  (gget st n = VNil /\ st' = gset (set_funcs st (funcs st ++ [FBody b])) n (VFunc (length (funcs st)))) \/
  (exists a, gget st n = VFunc a /\ (a < length (funcs st))%nat /\ st' = set_funcs st (upd (funcs st) a (FBody b))).
Proof.
  simpl. intros. destruct (gget st n); try discriminate.
  - inv H. auto.
  - apply overwrite_inv in H. right. exists a. tauto.
Qed.

Lemma exec_SetMethod : forall st t m b st', exec_instr st (SetMethod t m b) = Some st' ->
  exists ta ty, gget st t = VType ta /\ nth_error (types st) ta = Some ty /\
  ((exists a, lookup m (tmethods ty) = Some (VFunc a) /\ (a < length (funcs st))%nat /\ st' = set_funcs st (upd (funcs st) a (FBody b))) \/
   (fn_addr st (KMeth t m) = None /\
    st' = set_types (set_funcs st (funcs st ++ [FBody b]))
            (upd (types st) ta (mkTy (tfields ty) (upsert m (VFunc (length (funcs st))) (tmethods ty)))))).
Proof.
  simpl. intros. destruct (gget st t) eqn:G; try discriminate.
  destruct (nth_error (types st) a) as [ty|] eqn:N; try discriminate.
  exists a, ty. repeat split; auto.
  destruct (lookup m (tmethods ty)) as [[|z|a0|a0|a0]|] eqn:L;
    try (right; split; [reflexivity | now inv H]).
  apply overwrite_inv in H. left. exists a0. tauto.
Qed.

Lemma exec_GlobalStruct : forall st t fs st', exec_instr st (GlobalStruct t fs) = Some st' ->
  (gget st t = VNil /\ st' = gset (set_types st (types st ++ [mkTy fs []])) t (VType (length (types st)))) \/
  (exists ta ty, gget st t = VType ta /\ nth_error (types st) ta = Some ty /\
     st' = set_types st (upd (types st) ta
             (mkTy (fold_left (fun acc kv => upsert (fst kv) (snd kv) acc) fs (tfields ty)) (tmethods ty)))).
Proof.
  simpl. intros. destruct (gget st t); try discriminate.
  - inv H. auto.
  - destruct (nth_error (types st) a) eqn:N; inv H. right. eauto.
Qed.

Lemma exec_GlobalZero : forall st n z st', exec_instr st (GlobalZero n z) = Some st' ->
  (is_nil (gget st n) = true /\ st' = gset st n z) \/ (is_nil (gget st n) = false /\ st' = st).
Proof. simpl. intros. destruct (is_nil (gget st n)); inv H; auto. Qed.

Lemma exec_GlobalSet : forall st n e st', exec_instr st (GlobalSet n e) = Some st' ->
  exists st1 v, eval_expr st e = Some (st1, v) /\ frame st st1 /\ st' = gset st1 n v.
Proof.
  simpl. intros. destruct (eval_expr st e) as [[st1 v]|] eqn:E; inv H.
  exists st1, v. split; [reflexivity|]. split; [eapply eval_expr_frame; eauto | reflexivity].
Qed.

Lemma exec_frame : forall st i st', exec_instr st i = Some st' ->
  slots st' = slots st /\ (exists y, insts st' = insts st ++ y)%list /\
  forall x, writes i <> Some x -> lookup x (globals st') = lookup x (globals st).
Proof.
  intros st i st' E. destruct i; simpl writes.
  - apply exec_GlobalStruct in E. destruct E as [[_ ->]|(ta & ty & _ & _ & ->)]; repeat split; auto using ext_refl.
    intros. now rewrite glookup_gset_other by congruence.
  - apply exec_SetMethod in E. destruct E as (ta & ty & _ & _ & [(a & _ & _ & ->)|(_ & ->)]); repeat split; auto using ext_refl.
  - apply exec_GlobalFunc in E. destruct E as [[_ ->]|(a & _ & _ & ->)]; repeat split; auto using ext_refl.
    intros. now rewrite glookup_gset_other by congruence.
  - apply exec_GlobalZero in E. destruct E as [[_ ->]|[_ ->]]; repeat split; auto using ext_refl.
    intros. now rewrite glookup_gset_other by congruence.
  - apply exec_GlobalSet in E. destruct E as (s1 & v & _ & (_ & G & SS & _ & II) & ->). repeat split; auto.
    intros. rewrite glookup_gset_other by congruence. now rewrite G.
Qed.

Lemma exec_list_frame : forall is st st', exec_list st is = Some st' ->
  slots st' = slots st /\ (exists y, insts st' = insts st ++ y)%list /\
  forall x, Forall (fun i => writes i <> Some x) is -> lookup x (globals st') = lookup x (globals st).
Proof.
  induction is as [|i is IH]; simpl; intros st st' E.
  - inv E. auto using ext_refl.
  - destruct (exec_instr st i) as [st1|] eqn:E1; try discriminate.
    destruct (exec_frame _ _ _ E1) as (S1 & I1 & G1). destruct (IH _ _ E) as (S2 & I2 & G2).
    split; [congruence|]. split; [eapply ext_trans; eauto|].
    intros x W. inv W. rewrite G2, G1; auto.
Qed.

Lemma fn_addr_set_funcs : forall st f k, fn_addr (set_funcs st f) k = fn_addr st k.
Proof. destruct k; reflexivity. Qed.
Lemma fn_addr_gset_other : forall st n v k, key_name k <> n -> fn_addr (gset st n v) k = fn_addr st k.
Proof. destruct k; simpl; intros; rewrite gget_gset_other; auto. Qed.
Lemma gget_set_funcs : forall st f n, gget (set_funcs st f) n = gget st n. Proof. reflexivity. Qed.
Lemma gget_set_types : forall st f n, gget (set_types st f) n = gget st n. Proof. reflexivity. Qed.
Lemma fn_addr_meth : forall st t m a, fn_addr st (KMeth t m) = Some a <->
  exists ta ty, gget st t = VType ta /\ nth_error (types st) ta = Some ty /\ lookup m (tmethods ty) = Some (VFunc a).
Proof.
  simpl. intros st t m a. split.
  - intros H. destruct (gget st t) as [| | |ta|] eqn:G; try discriminate.
    destruct (nth_error (types st) ta) as [ty|] eqn:N; try discriminate.
    destruct (lookup m (tmethods ty)) as [[| |f| |]|] eqn:L; inv H. eauto.
  - intros (ta & ty & -> & -> & ->). reflexivity.
Qed.

Section WithSig.
  Variable S : sig.
  Hypothesis WF : wf_sig S.

  Lemma t_not_f : forall x, In x (tnames S) -> In x (sfuncs S) -> False.
  Proof.
    intros x T F. destruct (NoDup_app_inv _ _ (wf_names S WF)) as (_ & _ & D). apply (D x T), in_or_app. auto.
  Qed.
  Lemma t_not_v : forall x, In x (tnames S) -> In x (vnames S) -> False.
  Proof.
    intros x T V. destruct (NoDup_app_inv _ _ (wf_names S WF)) as (_ & _ & D). apply (D x T), in_or_app. auto.
  Qed.
  Lemma f_not_v : forall x, In x (sfuncs S) -> In x (vnames S) -> False.
  Proof.
    intros x. destruct (NoDup_app_inv _ _ (wf_names S WF)) as (_ & ND & _).
    destruct (NoDup_app_inv _ _ ND) as (_ & _ & D). exact (D x).
  Qed.

  Lemma key_name_not_v : forall k, key_ok S k -> In (key_name k) (vnames S) -> False.
  Proof.
    destruct k; simpl; intros.
    - eapply f_not_v; eauto.
    - eapply t_not_v; eauto. eapply wf_meth; eauto.
  Qed.

  Record Inv (st : state) : Prop := {
    inv_faddr : forall k a, key_ok S k -> fn_addr st k = Some a -> exists b, nth_error (funcs st) a = Some (FBody b);
    inv_inj : forall k k' a, key_ok S k -> key_ok S k' -> fn_addr st k = Some a -> fn_addr st k' = Some a -> k = k';
    inv_ty : forall t ta, In t (tnames S) -> gget st t = VType ta -> (ta < length (types st))%nat;
    inv_tyinj : forall t t' ta, In t (tnames S) -> In t' (tnames S) -> gget st t = VType ta -> gget st t' = VType ta -> t = t'
  }.

  Lemma inv_init : Inv init_state.
  Proof. split; intros; try discriminate; destruct k; discriminate. Qed.

  (* an instruction that has no key, or whose key has an address already, moves no address *)
  Lemma key_has_addr : forall st st' i k, fn_addr st' k = fn_addr st k ->
    (instr_key i = Some k -> exists a, fn_addr st k = Some a) ->
    fn_addr st' k = if key_is i k then Some (match fn_addr st k with Some a => a | None => length (funcs st) end)
                    else fn_addr st k.
  Proof.
    intros st st' i k -> H. destruct (key_is i k) eqn:KI; auto. apply key_is_true in KI. destruct (H KI) as [a ->]. reflexivity.
  Qed.

  (* where every declared function object lives after one instruction: the instruction's own key keeps
     its address if it has one and gets the fresh cell otherwise; no other key is affected *)
  Lemma exec_fn_addr : forall st i st', instr_ok S i -> Inv st -> exec_instr st i = Some st' ->
    forall k, key_ok S k ->
      fn_addr st' k = if key_is i k then Some (match fn_addr st k with Some a => a | None => length (funcs st) end)
                      else fn_addr st k.
  Proof.
    intros st i st' OK I E k KO.
    destruct i; simpl in OK.
    - apply key_has_addr; [|discriminate].
      apply exec_GlobalStruct in E. destruct E as [[G ->]|(ta & ty & G & N & ->)].
      + destruct k as [n|t' m].
        * rewrite fn_addr_gset_other by (simpl; intro; subst; eapply t_not_f; eauto). reflexivity.
        * destruct (Z.eq_dec t' t) as [->|NE].
          -- simpl. rewrite gget_gset_same, G. simpl. now rewrite nth_app_new.
          -- rewrite fn_addr_gset_other by (simpl; auto). simpl. rewrite gget_set_types.
             destruct (gget st t') eqn:G'; auto.
             now rewrite nth_error_app1 by exact (inv_ty st I t' a (wf_meth S WF t' m KO) G').
      + destruct k as [n|t' m]; [reflexivity|].
        simpl. rewrite gget_set_types. destruct (gget st t') eqn:G'; auto.
        destruct (Nat.eq_dec ta a) as [->|].
        * rewrite nth_upd_same by (eapply nth_lt; eauto). now rewrite N.
        * now rewrite nth_upd_other.
    - apply exec_SetMethod in E. destruct E as (ta & ty & G & N & [(a & L & LT & ->)|(FN & ->)]).
      + apply key_has_addr; [apply fn_addr_set_funcs|]. intros E0. inv E0. exists a. apply fn_addr_meth. eauto.
      + destruct k as [n|t' m']; [rewrite key_is_false by discriminate; reflexivity|].
        destruct (fkey_dec (KMeth t m) (KMeth t' m')) as [E0|NE].
        * inv E0. rewrite (proj2 (key_is_true _ _)), FN by reflexivity.
          simpl. rewrite gget_set_types, gget_set_funcs, G, nth_upd_same by (eapply nth_lt; eauto).
          simpl. now rewrite lookup_upsert_same.
        * rewrite key_is_false by (simpl; congruence).
          simpl. rewrite gget_set_types, gget_set_funcs. destruct (gget st t') eqn:G'; auto.
          destruct (Nat.eq_dec ta a) as [->|].
          -- assert (t' = t) by (eapply (inv_tyinj st I); eauto; eapply wf_meth; eauto). subst t'.
             rewrite nth_upd_same by (eapply nth_lt; eauto). rewrite N. simpl.
             rewrite lookup_upsert_other by congruence. reflexivity.
          -- now rewrite nth_upd_other.
    - apply exec_GlobalFunc in E. destruct E as [[G ->]|(a & G & LT & ->)].
      + destruct (fkey_dec (KFunc n) k) as [<-|NE].
        * rewrite (proj2 (key_is_true _ _)) by reflexivity. simpl. now rewrite gget_gset_same, G.
        * rewrite key_is_false by (simpl; congruence).
          rewrite fn_addr_gset_other; [apply fn_addr_set_funcs|].
          destruct k as [n'|t' m']; simpl; [congruence|].
          intro. subst. eapply t_not_f; eauto. eapply wf_meth; eauto.
      + apply key_has_addr; [apply fn_addr_set_funcs|]. intros E0. inv E0. exists a. simpl. now rewrite G.
    - apply key_has_addr; [|discriminate].
      apply exec_GlobalZero in E. destruct E as [[_ ->]|[_ ->]]; auto.
      apply fn_addr_gset_other. intro. eapply key_name_not_v; eauto. congruence.
    - apply key_has_addr; [|discriminate].
      apply exec_GlobalSet in E. destruct E as (st1 & v & _ & F & ->).
      rewrite fn_addr_gset_other; [now apply frame_fn_addr|]. intro. eapply key_name_not_v; eauto. congruence.
  Qed.

  Lemma exec_fn_addr_old : forall st i st' k a, instr_ok S i -> Inv st -> exec_instr st i = Some st' ->
    key_ok S k -> fn_addr st k = Some a -> fn_addr st' k = Some a.
  Proof. intros st i st' k a OK I E KO F. rewrite (exec_fn_addr _ _ _ OK I E k KO), F. now destruct (key_is i k). Qed.

  Lemma exec_fn_addr_inv : forall st i st' k a, instr_ok S i -> Inv st -> exec_instr st i = Some st' ->
    key_ok S k -> fn_addr st' k = Some a ->
    fn_addr st k = Some a \/ (fn_addr st k = None /\ instr_key i = Some k /\ a = length (funcs st)).
  Proof.
    intros st i st' k a OK I E KO F. rewrite (exec_fn_addr _ _ _ OK I E k KO) in F.
    destruct (key_is i k) eqn:KI; auto. apply key_is_true in KI. destruct (fn_addr st k); inv F; auto.
  Qed.

  Lemma exec_funcs : forall st i st', exec_instr st i = Some st' ->
    match instr_key i with
    | Some k0 =>
        match fn_addr st k0 with
        | Some a => (a < length (funcs st))%nat /\ funcs st' = upd (funcs st) a (FBody (instr_body i))
        | None => funcs st' = (funcs st ++ [FBody (instr_body i)])%list
        end
    | None => exists x, funcs st' = (funcs st ++ x)%list
    end.
  Proof.
    intros st i st' E. destruct i; simpl instr_key; cbv iota.
    - apply exec_GlobalStruct in E. destruct E as [[G ->]|(ta & ty & G & N & ->)]; apply ext_refl.
    - apply exec_SetMethod in E. destruct E as (ta & ty & G & N & [(a & L & LT & ->)|(FN & ->)]).
      + simpl. rewrite G, N, L. auto.
      + rewrite FN. reflexivity.
    - apply exec_GlobalFunc in E. destruct E as [[G ->]|(a & G & LT & ->)]; simpl; rewrite G; auto.
    - apply exec_GlobalZero in E. destruct E as [[_ ->]|[_ ->]]; apply ext_refl.
    - apply exec_GlobalSet in E. destruct E as (st1 & v & _ & (_ & _ & _ & F & _) & ->). exact F.
  Qed.

  Lemma exec_cell : forall st i st' c o, exec_instr st i = Some st' -> nth_error (funcs st) c = Some o ->
    nth_error (funcs st') c = Some o \/
    exists k0, instr_key i = Some k0 /\ fn_addr st k0 = Some c /\ nth_error (funcs st') c = Some (FBody (instr_body i)).
  Proof.
    intros st i st' c o E N. pose proof (exec_funcs st i st' E) as FU.
    destruct (instr_key i) as [k0|]; [destruct (fn_addr st k0) as [a|] eqn:F0|].
    - destruct FU as [LT ->]. destruct (Nat.eq_dec a c) as [->|NE].
      + right. exists k0. rewrite nth_upd_same; auto.
      + left. now rewrite nth_upd_other.
    - left. rewrite FU. now apply nth_app_old.
    - left. eapply ext_nth; eauto.
  Qed.

  Lemma exec_types : forall st i st', instr_ok S i -> exec_instr st i = Some st' ->
    (length (types st) <= length (types st'))%nat /\
    forall t, In t (tnames S) ->
      gget st' t = gget st t \/
      (writes i = Some t /\ gget st' t = VType (length (types st)) /\ length (types st') = Datatypes.S (length (types st))).
  Proof.
    intros st i st' OK E. destruct i; simpl in OK.
    - apply exec_GlobalStruct in E. destruct E as [[G ->]|(ta & ty & G & N & ->)]; simpl.
      + rewrite app_length. simpl. split; [lia|].
        intros t' T'. destruct (Z.eq_dec t' t) as [->|].
        * right. rewrite gget_gset_same. repeat split; auto. lia.
        * left. now rewrite gget_gset_other.
      + rewrite upd_length. auto.
    - apply exec_SetMethod in E. destruct E as (ta & ty & G & N & [(a & L & LT & ->)|(FN & ->)]); simpl;
        try rewrite upd_length; auto.
    - apply exec_GlobalFunc in E. destruct E as [[G ->]|(a & G & LT & ->)]; simpl; split; auto.
      intros t T. left. rewrite gget_gset_other; [reflexivity|]. intro. subst. eapply t_not_f; eauto.
    - apply exec_GlobalZero in E. destruct E as [[_ ->]|[_ ->]]; simpl; split; auto.
      intros t T. left. rewrite gget_gset_other; [reflexivity|]. intro. subst. eapply t_not_v; eauto.
    - apply exec_GlobalSet in E. destruct E as (st1 & v & _ & F & ->).
      pose proof F as (T & _). simpl. rewrite T. split; auto. intros t T'. left.
      rewrite gget_gset_other; [eapply frame_gget; eauto|]. intro. subst. eapply t_not_v; eauto.
  Qed.

  Lemma exec_inv : forall st i st', instr_ok S i -> Inv st -> exec_instr st i = Some st' -> Inv st'.
  Proof.
    intros st i st' OK I E.
    pose proof (exec_fn_addr_inv st i st') as FA.
    pose proof (exec_types st i st' OK E) as [TL TG].
    split.
    - intros k a KO F. destruct (FA k a OK I E KO F) as [F0|(F0 & IK & ->)].
      + destruct (inv_faddr st I k a KO F0) as [b0 N0].
        destruct (exec_cell _ _ _ _ _ E N0) as [H|(k0 & _ & _ & H)]; eauto.
      + pose proof (exec_funcs st i st' E) as FU. rewrite IK, F0 in FU. rewrite FU, nth_app_new. eauto.
    - intros k k' a KO KO' F F'.
      destruct (FA k a OK I E KO F) as [F0|(F0 & IK & ->)]; destruct (FA k' _ OK I E KO' F') as [F0'|(F0' & IK' & E')].
      + eapply (inv_inj st I); eauto.
      + subst. destruct (inv_faddr st I k _ KO F0) as [b N]. apply nth_lt in N. lia.
      + destruct (inv_faddr st I k' _ KO' F0') as [b N]. apply nth_lt in N. lia.
      + congruence.
    - intros t ta T G. destruct (TG t T) as [EQ|(_ & G1 & L)].
      + rewrite EQ in G. pose proof (inv_ty st I t ta T G). lia.
      + rewrite G1 in G. inv G. lia.
    - intros t t' ta T T' G G'.
      destruct (TG t T) as [EQ|(W & G1 & L)]; destruct (TG t' T') as [EQ'|(W' & G1' & L')].
      + rewrite EQ in G. rewrite EQ' in G'. eapply (inv_tyinj st I); eauto.
      + rewrite EQ in G. rewrite G1' in G'. inv G'. pose proof (inv_ty st I t _ T G). lia.
      + rewrite EQ' in G'. rewrite G1 in G. inv G. pose proof (inv_ty st I t' _ T' G'). lia.
      + congruence.
  Qed.

  Lemma exec_content : forall st i st', instr_ok S i -> Inv st -> exec_instr st i = Some st' ->
    forall k a, key_ok S k -> fn_addr st' k = Some a ->
      (instr_key i = Some k /\ nth_error (funcs st') a = Some (FBody (instr_body i))) \/
      (instr_key i <> Some k /\ fn_addr st k = Some a /\ nth_error (funcs st') a = nth_error (funcs st) a).
  Proof.
    intros st i st' OK I E k a KO F. pose proof (exec_funcs st i st' E) as FU.
    destruct (exec_fn_addr_inv _ _ _ _ _ OK I E KO F) as [F0|(F0 & IK & ->)].
    - destruct (inv_faddr st I k a KO F0) as [b0 N0].
      destruct (exec_cell _ _ _ _ _ E N0) as [H|(k0 & IK & F1 & H)].
      + destruct (key_is i k) eqn:KI.
        * apply key_is_true in KI. left. split; auto. rewrite KI, F0 in FU. destruct FU as [LT ->]. now apply nth_upd_same.
        * right. split; [|split; congruence]. intro IK. apply key_is_true in IK. congruence.
      + (* two declared keys share an address only when equal *)
        left. assert (k0 = k) by (eapply (inv_inj st I); eauto; eapply instr_key_ok; eauto). split; congruence.
    - left. split; auto. rewrite IK, F0 in FU. rewrite FU. apply nth_app_new.
  Qed.

  (* bound-method objects are never overwritten: in-place writes hit FBody objects of declared keys only *)
  Lemma exec_bound : forall st i st' c r f, instr_ok S i -> Inv st -> exec_instr st i = Some st' ->
    nth_error (funcs st) c = Some (FBound r f) -> nth_error (funcs st') c = Some (FBound r f).
  Proof.
    intros st i st' c r f OK I E N. destruct (exec_cell _ _ _ _ _ E N) as [H|(k0 & IK & F0 & _)]; auto.
    destruct (inv_faddr st I k0 c (instr_key_ok _ _ _ OK IK) F0) as [b N']. congruence.
  Qed.

  Lemma exec_list_inv : forall is st st', Forall (instr_ok S) is -> Inv st -> exec_list st is = Some st' -> Inv st'.
  Proof.
    induction is as [|i is IH]; simpl; intros st st' OK I E. now inv E.
    inv OK. destruct (exec_instr st i) as [st1|] eqn:E1; try discriminate.
    eapply IH; [eauto | eapply exec_inv; eauto | exact E].
  Qed.

  Lemma exec_list_stable : forall is st st', Forall (instr_ok S) is -> Inv st -> exec_list st is = Some st' ->
    (forall k a, key_ok S k -> fn_addr st k = Some a -> fn_addr st' k = Some a) /\
    (forall c r f, nth_error (funcs st) c = Some (FBound r f) -> nth_error (funcs st') c = Some (FBound r f)).
  Proof.
    induction is as [|i is IH]; simpl; intros st st' OK I E. inv E; auto.
    inv OK. destruct (exec_instr st i) as [st1|] eqn:E1; try discriminate.
    destruct (IH st1 st' H2 (exec_inv _ _ _ H1 I E1) E) as [A B]. split.
    - intros k a KO F. apply A; auto. eapply exec_fn_addr_old; eauto.
    - intros. apply B. eapply exec_bound; eauto.
  Qed.

  Section Bodies.
    Variable B : bodies.
    Definition body_ok (i : instr) : Prop := forall k, instr_key i = Some k -> instr_body i = body_of B k.

    Lemma exec_list_latest : forall is st st', Forall (instr_ok S) is -> Forall body_ok is -> Inv st ->
      exec_list st is = Some st' ->
      forall k a, key_ok S k -> fn_addr st' k = Some a ->
        (has_key k is = true -> nth_error (funcs st') a = Some (FBody (body_of B k))) /\
        (has_key k is = false -> fn_addr st k = Some a /\ nth_error (funcs st') a = nth_error (funcs st) a).
    Proof.
      induction is as [|i is IH]; simpl; intros st st' OK BO I E k a KO F.
      - inv E. split; [discriminate|auto].
      - inv OK. inv BO. destruct (exec_instr st i) as [st1|] eqn:E1; try discriminate.
        destruct (IH st1 st' H2 H4 (exec_inv _ _ _ H1 I E1) E k a KO F) as [Y N].
        destruct (has_key k is) eqn:HK.
        + rewrite orb_true_r. split; [auto|discriminate].
        + rewrite orb_false_r. destruct (N eq_refl) as [F1 C1].
          destruct (exec_content _ _ _ H1 I E1 k a KO F1) as [[IK C]|(IK & F0 & C)].
          * split; intros HH.
            -- rewrite C1, C. now rewrite (H3 k IK).
            -- apply key_is_true in IK. congruence.
          * split; intros HH.
            -- apply key_is_true in HH. congruence.
            -- split; auto. congruence.
    Qed.

    Lemma exec_list_defined : forall is st st', Forall (instr_ok S) is -> Inv st -> exec_list st is = Some st' ->
      forall k, key_ok S k -> has_key k is = true -> exists a, fn_addr st' k = Some a.
    Proof.
      induction is as [|i is IH]; simpl; intros st st' OK I E k KO HK; try discriminate.
      inv OK. destruct (exec_instr st i) as [st1|] eqn:E1; try discriminate.
      pose proof (exec_inv _ _ _ H1 I E1) as I1.
      destruct (key_is i k) eqn:KI.
      - eexists. eapply (proj1 (exec_list_stable _ _ _ H2 I1 E)); eauto.
        rewrite (exec_fn_addr _ _ _ H1 I E1 k KO), KI. reflexivity.
      - simpl in HK. eapply IH; eauto.
    Qed.

    Lemma version_ok : Forall (instr_ok S) (version_of S B) /\ Forall body_ok (version_of S B).
    Proof.
      unfold version_of. split; repeat rewrite Forall_app; repeat split; apply Forall_forall; intros i HI;
        apply in_map_iff in HI; destruct HI as (x & <- & HI).
      - simpl. apply in_map. exact HI.
      - simpl. destruct x; exact HI.
      - simpl. exact HI.
      - assert (In (vname x) (vnames S)) by (apply in_map; exact HI). destruct x; exact H.
      - intros k E. discriminate.
      - intros k E. inv E. reflexivity.
      - intros k E. inv E. reflexivity.
      - intros k E. destruct x; discriminate.
    Qed.

    Lemma version_has_key : forall k, key_ok S k -> has_key k (version_of S B) = true.
    Proof.
      intros k KO. apply has_key_In. rewrite version_of_eq. destruct k as [n|t m]; simpl in KO.
      - exists (GlobalFunc n (fbody B n)). split; [|reflexivity]. rewrite !in_app_iff. do 2 right. left.
        apply (in_map (fun n0 => GlobalFunc n0 (fbody B n0))), KO.
      - exists (SetMethod t m (mbody B t m)). split; [|reflexivity]. rewrite !in_app_iff. right. left.
        apply (in_map (fun tm => SetMethod (fst tm) (snd tm) (mbody B (fst tm) (snd tm))) _ (t, m)), KO.
    Qed.
  End Bodies.
End WithSig.
