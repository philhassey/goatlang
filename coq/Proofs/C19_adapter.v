(* C19 (part 2) -- proofs about the adapter layer model (Model/Call.v): the six
   NewFunc forms, call / callReady, VM.Func, newMethod, mkFunc, error propagation.
   All statements are for every arity, argument list, result list and stack prefix. *)
From Coq Require Import ZArith List Bool Lia.
From GV Require Import GoSpec.GoPrim Gen.ValueOps_gen Model.Call.
Import ListNotations.
Open Scope Z_scope.

Lemma slen_app a b : slen (a ++ b) = slen a + slen b.
Proof. unfold slen. rewrite app_length. lia. Qed.

Lemma slen_nil : slen [] = 0.
Proof. reflexivity. Qed.

Lemma slen_map f (l : list cell) : slen (map f l) = slen l.
Proof. unfold slen. now rewrite map_length. Qed.

(* arithmetic on stack heights: lengths of appended and one-cell stacks, all of them non-negative *)
Ltac len := unfold slen in *; rewrite ?app_length in *; cbn [length] in *; lia.

Lemma to_nat_slen a : Z.to_nat (slen a) = length a.
Proof. apply Nat2Z.id. Qed.

Lemma firstn_len_app {A} (a b : list A) : firstn (length a) (a ++ b) = a.
Proof. rewrite <- (Nat.add_0_r (length a)), firstn_app_2. apply app_nil_r. Qed.

Lemma skipn_len_app {A} (a b : list A) : skipn (length a) (a ++ b) = b.
Proof. now rewrite skipn_app, skipn_all, Nat.sub_diag. Qed.

Lemma split_top_app n lo args : slen args = n -> split_top n (lo ++ args) = Good (lo, args).
Proof.
  intros <-. unfold split_top. rewrite slen_app, Z.add_simpl_r.
  destruct (Z.ltb_spec (slen lo) 0); [len|]. destruct (Z.ltb_spec (slen lo + slen args) (slen lo)); [len|].
  cbn [orb]. now rewrite to_nat_slen, firstn_len_app, skipn_len_app.
Qed.

Lemma pop_snoc st x : pop (st ++ [x]) = Some (st, x).
Proof. unfold pop. rewrite rev_app_distr. cbn. now rewrite rev_involutive. Qed.

Lemma slice_to_app lo outs n : 0 <= n <= slen outs ->
  slice_to (slen lo + n) (lo ++ outs) = Good (lo ++ firstn (Z.to_nat n) outs).
Proof.
  intros H. unfold slice_to. rewrite slen_app.
  destruct (Z.ltb_spec (slen lo + n) 0); [len|]. destruct (slen lo + slen outs <? slen lo + n) eqn:E2; [lia|].
  cbn [orb]. rewrite Z2Nat.inj_add, to_nat_slen by len. apply f_equal, firstn_app_2.
Qed.

Lemma last_n_exact n l : slen l = n -> last_n n l = Good l.
Proof. intros H. unfold last_n. now rewrite <- (app_nil_l l), split_top_app. Qed.

Lemma last_n_len n st rs : last_n n st = Good rs -> slen rs = n.
Proof.
  unfold last_n, split_top. destruct ((slen st - n <? 0) || (slen st <? slen st - n)) eqn:E; [discriminate|].
  intros [= <-]. apply orb_false_iff in E as [E1 E2]. unfold slen in *. rewrite skipn_length. lia.
Qed.

Lemma adapter_NNV argc rets f lo fixed last : slen fixed = argc - 1 ->
  Body (NewFunc argc rets (NNV f)) (lo ++ fixed ++ [last]) =
    (vargs <~ data last ;; vs <~ f fixed vargs ;; Good (lo ++ vs)).
Proof.
  intros H. cbn [NewFunc newFunc Body]. rewrite split_top_app by len. cbn [cbind].
  destruct (Z.ltb_spec (argc - 1) 0); [len|].
  now rewrite <- H, to_nat_slen, nth_error_app2, Nat.sub_diag, firstn_len_app.
Qed.

Lemma native_fields argc rets n : 0 <= argc ->
  Args (NewFunc argc rets n) = argc /\ Rets (NewFunc argc rets n) = rets /\
  VariadicType (NewFunc argc rets n) = 0 /\
  Variadic (NewFunc argc rets n) = match n with NNV _ => 0 <? argc | _ => false end.
Proof.
  intros H. destruct n; cbn [NewFunc newFunc Args Rets Variadic VariadicType].
  1-5: destruct (argc <? 0) eqn:E; [lia | auto].
  destruct (- argc <? 0) eqn:E; destruct (0 <? argc) eqn:E2; try lia; repeat split; auto; lia.
Qed.

(* frame property: a function works on the top of the stack only *)
Definition frame_ok (ft : funcT) (n : Z) (g : list cell -> cres (list cell)) : Prop :=
  forall lo args, slen args = n -> Body ft (lo ++ args) = (r <~ g args ;; Good (lo ++ r)).

(* the callback seen as a function from the argument cells to the result cells *)
Definition lift (n : native) (a : list cell) : cres (list cell) :=
  match n with
  | N00 f => _ <~ f ;; Good a
  | N01 f => v <~ f ;; Good (a ++ [v])
  | NN0 f => _ <~ f a ;; Good []
  | NN1 f => v <~ f a ;; Good [v]
  | NNM f => f a
  | NNV f => match pop a with
             | Some (fixed, last) => vargs <~ data last ;; f fixed vargs
             | None => Fail (ERuntime 1)
             end
  end.

Lemma native_frame argc rets n : frame_ok (NewFunc argc rets n) argc (lift n).
Proof.
  intros lo args H. destruct n; cbn [lift].
  - cbn. now destruct f.
  - cbn. destruct f; cbn; [now rewrite app_assoc | reflexivity].
  - cbn [NewFunc newFunc Body]. rewrite split_top_app by assumption. cbn [cbind].
    destruct (f args); cbn; [now rewrite app_nil_r | reflexivity].
  - cbn [NewFunc newFunc Body]. rewrite split_top_app by assumption. cbn [cbind]. now destruct (f args).
  - cbn [NewFunc newFunc Body]. rewrite split_top_app by assumption. cbn [cbind]. now destruct (f args).
  - destruct args as [|last fixed _] using rev_ind.
    + subst argc. cbn [NewFunc newFunc Body]. now rewrite split_top_app.
    + rewrite pop_snoc, adapter_NNV by len. now destruct (data last).
Qed.

Lemma callReady_args st ft xArgs xRets : xArgs <> Args ft ->
  callReady st ft xArgs xRets = Fail EIncorrectArgs.
Proof. intros H. unfold callReady. destruct (xArgs =? Args ft) eqn:E; [lia | reflexivity]. Qed.

Lemma callReady_fail st ft xRets e : Body ft st = Fail e ->
  callReady st ft (Args ft) xRets = Fail e.
Proof. intros H. unfold callReady. now rewrite Z.eqb_refl, H. Qed.

Definition deliver (lo outs : list cell) (xRets : Z) : cres (list cell) :=
  if slen outs <? xRets then Fail EIncorrectReturns else Good (lo ++ firstn (Z.to_nat xRets) outs).

Lemma callReady_good lo args outs ft xRets :
  Body ft (lo ++ args) = Good (lo ++ outs) -> slen args = Args ft -> 0 <= xRets ->
  callReady (lo ++ args) ft (Args ft) xRets = deliver lo outs xRets.
Proof.
  intros HB Ha Hx. unfold callReady, deliver. rewrite Z.eqb_refl, HB. cbn [negb cbind].
  rewrite !slen_app, Ha, Z.add_simpl_r, Z.add_simpl_l.
  destruct (slen outs <? xRets) eqn:E1; [reflexivity|].
  destruct (xRets <? slen outs) eqn:E2.
  - apply slice_to_app. lia.
  - replace xRets with (slen outs) by lia. now rewrite to_nat_slen, firstn_all.
Qed.

Lemma callReady_frame ft n g lo args xRets :
  Args ft = n -> frame_ok ft n g -> slen args = n -> 0 <= xRets ->
  callReady (lo ++ args) ft n xRets = (outs <~ g args ;; deliver lo outs xRets).
Proof.
  intros <- HF Ha Hx. specialize (HF lo args Ha). destruct (g args) as [outs|e]; cbn [cbind] in *.
  - now apply callReady_good.
  - now apply callReady_fail.
Qed.

(* callReady looks at the stack only through the body and the frame base *)
Lemma callReady_ext st1 st2 f1 f2 x1 x2 xRets :
  (x1 =? Args f1) = (x2 =? Args f2) -> Body f1 st1 = Body f2 st2 -> slen st1 - x1 = slen st2 - x2 ->
  callReady st1 f1 x1 xRets = callReady st2 f2 x2 xRets.
Proof. intros H1 H2 H3. unfold callReady. now rewrite H1, H2, H3. Qed.

Lemma call_fixed st ft xArgs xRets : Variadic ft = false ->
  call st ft xArgs xRets = callReady st ft xArgs xRets.
Proof. intros H. unfold call. now rewrite H. Qed.

(* a variadic function: the surplus arguments are replaced by ONE cell *)
Lemma call_variadic_gen lo fixed extra ft xRets : Variadic ft = true -> slen fixed = Args ft - 1 ->
  call (lo ++ fixed ++ extra) ft (slen fixed + slen extra) xRets =
  callReady (lo ++ fixed ++ [variadic_cell (VariadicType ft) (slen extra) extra]) ft (Args ft) xRets.
Proof.
  intros HV HF. unfold call. rewrite HV. cbn [negb].
  replace (slen fixed + slen extra - Args ft + 1) with (slen extra) by lia.
  destruct (Z.ltb_spec (slen extra) 0); [len|].
  rewrite app_assoc, slen_app, Z.add_simpl_r.
  destruct (Z.ltb_spec (slen (lo ++ fixed)) 0); [len|].
  rewrite to_nat_slen, firstn_len_app, skipn_len_app.
  replace (slen fixed + slen extra - slen extra + 1) with (Args ft) by lia.
  now rewrite <- app_assoc.
Qed.

Lemma variadic_cell_some vtype extra : 1 <= slen extra ->
  variadic_cell vtype (slen extra) extra = pack (Type_value vtype) extra.
Proof. intros H. unfold variadic_cell. destruct (slen extra =? 0) eqn:E; [lia | reflexivity]. Qed.

(* the callee's view of the variadic parameter through Value.data(): the surplus arguments assigned to
   the element type, whether they were packed into a slice or (none) the parameter is the nil slice *)
Lemma data_variadic_cell vtype extra :
  data (variadic_cell vtype (slen extra) extra) = Good (map (assign_cell (Type_value vtype)) extra).
Proof. now destruct extra. Qed.

(* at least one surplus argument: they become ONE slice of the declared element type *)
Lemma call_variadic lo fixed extra ft xRets : Variadic ft = true -> slen fixed = Args ft - 1 ->
  1 <= slen extra ->
  call (lo ++ fixed ++ extra) ft (slen fixed + slen extra) xRets =
  callReady (lo ++ fixed ++ [pack (Type_value (VariadicType ft)) extra]) ft (Args ft) xRets.
Proof.
  intros HV HF HE. now rewrite call_variadic_gen, variadic_cell_some.
Qed.

(* no surplus argument: the variadic parameter is the nil slice of the declared variadic type *)
Lemma call_variadic_none lo fixed ft xRets : Variadic ft = true -> slen fixed = Args ft - 1 ->
  call (lo ++ fixed) ft (slen fixed) xRets =
  callReady (lo ++ fixed ++ [CVal (mkValue (VariadicType ft) (Zn 0) PNone)]) ft (Args ft) xRets.
Proof.
  intros HV HF. rewrite <- (app_nil_r fixed) at 1. rewrite <- (Z.add_0_r (slen fixed)).
  exact (call_variadic_gen lo fixed [] ft xRets HV HF).
Qed.

Lemma call_variadic_few st ft xArgs xRets : Variadic ft = true -> xArgs < Args ft - 1 ->
  call st ft xArgs xRets = Fail (ERuntime 2).
Proof.
  intros HV H. unfold call. rewrite HV. cbn [negb].
  destruct (xArgs - Args ft + 1 <? 0) eqn:E; [reflexivity | lia].
Qed.

(* end to end, fixed arity natives (five forms; the variadic form with argc = 0 as well) *)
Lemma native_call argc rets n lo args xRets :
  Variadic (NewFunc argc rets n) = false -> slen args = argc -> 0 <= xRets ->
  call (lo ++ args) (NewFunc argc rets n) argc xRets = (outs <~ lift n args ;; deliver lo outs xRets).
Proof.
  intros HV Ha Hx. rewrite call_fixed by assumption.
  apply callReady_frame; [apply native_fields; len | apply native_frame | assumption..].
Qed.

(* variadic natives, the last parameter already ONE cell (a spread call f(a, s...), CALLVARIADIC, hands the slice
   over as it is): the callback gets the fixed prefix and its items *)
Lemma variadic_ready argc rets f lo fixed last xRets :
  slen fixed = argc - 1 -> 0 <= xRets ->
  callReady (lo ++ fixed ++ [last]) (NewFunc argc rets (NNV f)) argc xRets =
  (vargs <~ data last ;; outs <~ f fixed vargs ;; deliver lo outs xRets).
Proof.
  intros HF Hx.
  rewrite (callReady_frame _ argc (lift (NNV f))); [| apply native_fields; len | apply native_frame | len | assumption].
  cbn [lift]. rewrite pop_snoc. now destruct (data last).
Qed.

(* end to end, variadic natives: fixed prefix + surplus arguments *)
Lemma variadic_call argc rets f lo fixed extra xRets :
  slen fixed = argc - 1 -> 0 <= xRets ->
  call (lo ++ fixed ++ extra) (NewFunc argc rets (NNV f)) (slen fixed + slen extra) xRets =
  (outs <~ f fixed (map (assign_cell 0) extra) ;; deliver lo outs xRets).
Proof.
  intros HF Hx. destruct (native_fields argc rets (NNV f)) as (HA & _ & HT & HV); [len|].
  rewrite call_variadic_gen, HA, variadic_ready, HT, data_variadic_cell; try assumption; [reflexivity | | lia].
  rewrite HV. len.
Qed.

Section Heap.
  Variable env : Z -> option funcT.

  (* VM.Func on a registered function: one call on the stack [params], then the top xRets cells *)
  Lemma vm_func_call h ft xRets params : env h = Some ft ->
    vm_func env (CFn h) xRets params = (st <~ call params ft (slen params) xRets ;; last_n xRets st).
  Proof. intros He. unfold vm_func, op_call. rewrite pop_snoc. cbn [getFunc]. now rewrite He. Qed.

  (* a call that delivers on the empty stack leaves exactly the xRets cells that VM.Func answers *)
  Lemma vm_func_delivers h ft xRets params g : env h = Some ft -> 0 <= xRets ->
    call params ft (slen params) xRets = (outs <~ g ;; deliver [] outs xRets) ->
    vm_func env (CFn h) xRets params = (outs <~ g ;; deliver [] outs xRets).
  Proof.
    intros He Hx Hc. rewrite (vm_func_call h ft), Hc by assumption.
    destruct g as [outs|]; [|reflexivity]. cbn [cbind]. unfold deliver.
    destruct (slen outs <? xRets) eqn:E; [reflexivity|].
    cbn [cbind app]. apply last_n_exact. unfold slen. rewrite firstn_length. len.
  Qed.

  Lemma vm_func_fail h ft xRets params e :
    env h = Some ft -> Variadic ft = false -> slen params = Args ft -> Body ft params = Fail e ->
    vm_func env (CFn h) xRets params = Fail e.
  Proof.
    intros He HV Hp HB. now rewrite (vm_func_call h ft), call_fixed, Hp, (callReady_fail _ _ _ e HB).
  Qed.
End Heap.

Lemma method_fields obj f : 1 <= Args f -> (Variadic f = true -> 2 <= Args f) ->
  Args (newMethod obj f) = Args f - 1 /\ Rets (newMethod obj f) = Rets f /\
  Variadic (newMethod obj f) = Variadic f /\ VariadicType (newMethod obj f) = VariadicType f.
Proof.
  intros H1 H2. unfold newMethod, newFunc. cbn [Args Rets Variadic VariadicType].
  destruct (Variadic f) eqn:EV.
  - specialize (H2 eq_refl). destruct (- (Args f - 1) <? 0) eqn:E; [|lia]. repeat split; auto; lia.
  - destruct (Args f - 1 <? 0) eqn:E; [lia|]. auto.
Qed.

Lemma method_body obj f lo args : slen args = Args f - 1 ->
  Body (newMethod obj f) (lo ++ args) = Body f (lo ++ [obj] ++ args).
Proof.
  intros H. cbn [newMethod newFunc Body].
  destruct (Z.ltb_spec (Args f - 1) 0); [len|]. now rewrite split_top_app.
Qed.

(* calling a bound method = calling the underlying function with the receiver below the arguments, whatever the
   number of arguments.  A variadic f: both sides refuse fewer than Args f - 2 arguments; otherwise the arguments
   split into Args f - 2 fixed ones and the surplus, which both sides pack into the same cell (the method
   inherits VariadicType) *)
Lemma method_call obj f lo args xRets : 1 <= Args f -> (Variadic f = true -> 2 <= Args f) ->
  call (lo ++ args) (newMethod obj f) (slen args) xRets =
  call (lo ++ [obj] ++ args) f (slen args + 1) xRets.
Proof.
  intros H1 H2. destruct (method_fields obj f H1 H2) as (HA & _ & HV' & HT).
  destruct (Variadic f) eqn:HV.
  - specialize (H2 eq_refl). destruct (Z.ltb_spec (slen args) (Args f - 2)).
    { rewrite !call_variadic_few; trivial; lia. }
    rewrite <- (firstn_skipn (Z.to_nat (Args f - 2)) args).
    set (fixed := firstn _ args). set (extra := skipn _ args).
    assert (slen fixed = Args f - 2) by (unfold fixed, slen in *; rewrite firstn_length; lia).
    pose proof (call_variadic_gen lo ([obj] ++ fixed) extra f xRets HV) as G. rewrite <- !app_assoc in G.
    rewrite slen_app, call_variadic_gen, HT by (trivial; lia).
    replace (slen fixed + slen extra + 1) with (slen ([obj] ++ fixed) + slen extra) by len. rewrite G by len.
    apply callReady_ext; [rewrite HA; lia | apply method_body; len | rewrite HA; len].
  - rewrite !call_fixed by congruence.
    destruct (Z.eq_dec (slen args) (Args f - 1)) as [E|E].
    + apply callReady_ext; [rewrite HA; lia | now apply method_body | len].
    + rewrite !callReady_args; auto; lia.
Qed.

Lemma slen_assign_zip tys cs : slen (assign_zip tys cs) = slen cs.
Proof.
  unfold slen. f_equal. revert cs. induction tys; destruct cs; cbn; auto.
Qed.

(* a script function; that its body always leaves exactly [rets] values is the premise of script_frame *)
Definition script_fn (args rets : Z) (atys rtys : list Z) (code : list cell -> cres (list cell)) : funcT :=
  newFunc args rets (mkFunc args rets atys rtys code).

Lemma script_frame args rets atys rtys code :
  0 <= args -> (forall a outs, code a = Good outs -> slen outs = rets) ->
  frame_ok (script_fn args rets atys rtys code) (Args (script_fn args rets atys rtys code))
    (fun a => outs <~ code (assign_zip atys a) ;; Good (assign_zip rtys outs)).
Proof.
  intros H0 Hc lo a Ha. cbn [script_fn newFunc Args Body] in *.
  destruct (args <? 0) eqn:E0; [lia|]. unfold mkFunc. rewrite slen_app.
  destruct (Z.ltb_spec (slen lo + slen a - args) 0); [len|].
  rewrite split_top_app by assumption. cbn [cbind].
  destruct (code (assign_zip atys a)) as [outs|e] eqn:Ec; [|reflexivity]. cbn [cbind].
  apply Hc in Ec. rewrite slen_app.
  destruct (Z.ltb_spec (slen lo + slen outs - rets) 0); [len|]. now rewrite split_top_app.
Qed.

Section Nested.
  Variable env : Z -> option funcT.

  (* a native of any argument-taking form whose callback calls VM.Func on [inner]
     (as slices.SortFunc does) and re-raises its error *)
  Variables (hin : Z) (k : Z) (sel : list cell -> list cell).

  Definition nested0 (cont : list cell -> list cell -> cres unit) : native :=
    NN0 (fun a => rs <~ vm_func env (CFn hin) k (sel a) ;; cont a rs).
  Definition nested1 (cont : list cell -> list cell -> cres cell) : native :=
    NN1 (fun a => rs <~ vm_func env (CFn hin) k (sel a) ;; cont a rs).
  Definition nestedM (cont : list cell -> list cell -> cres (list cell)) : native :=
    NNM (fun a => rs <~ vm_func env (CFn hin) k (sel a) ;; cont a rs).

  (* env2: the table in which the OUTER native is looked up.  It need not be the env its closure
     captured (a statement with env2 = env has a self-referential premise: the closure stored in env
     mentions env, which without functional extensionality can be established by conversion only) *)
  Lemma nested_error (env2 : Z -> option funcT) hout argc rets n lo args xRets e inner :
    (* the inner script function fails (a script panic, or a native below it) *)
    env hin = Some inner -> Variadic inner = false -> slen (sel args) = Args inner ->
    Body inner (sel args) = Fail e ->
    (* the outer native is one of the nested forms *)
    (exists c, n = nested0 c) \/ (exists c, n = nested1 c) \/ (exists c, n = nestedM c) ->
    slen args = argc -> 0 <= xRets ->
    call (lo ++ args) (NewFunc argc rets n) argc xRets = Fail e /\
    (env2 hout = Some (NewFunc argc rets n) -> vm_func env2 (CFn hout) xRets args = Fail e).
  Proof.
    intros He HV Hs HB Hn Ha Hx.
    pose proof (vm_func_fail env hin inner k (sel args) e He HV Hs HB) as HI.
    destruct (native_fields argc rets n) as (HA & _ & _ & HVn); [len|].
    assert (Variadic (NewFunc argc rets n) = false /\ lift n args = Fail e) as [HVn' HL].
    { destruct Hn as [[c ->]|[[c ->]|[c ->]]]; cbn [lift nested0 nested1 nestedM]; now rewrite HI. }
    split; [rewrite native_call by assumption; now rewrite HL|].
    intros Ho. apply (vm_func_fail env2 hout (NewFunc argc rets n)); try assumption; [congruence|].
    rewrite <- (app_nil_l args), native_frame by assumption. now rewrite HL.
  Qed.
End Nested.
