(* How the GENERATED dispatch step (Gen/Steps_gen.v step_gen, translated from /repo/do.go on every run)
   uses the operator functions of Gen/ValueOps_gen.v: which function each opcode applies, to which
   operands, in which order, and where the result goes -- for every instruction, stack and state.
   steps_agree carries such a statement over to the hand-written step1 when its result is not stuck
   (step1_of_step_gen). *)
From Coq Require Import ZArith List String Ascii Bool Lia.
From GV Require Import GoSpec.GoPrim Gen.ValueOps_gen Gen.Tables_gen Model.VM Gen.Steps_gen Proofs.VM_step Proofs.Steps_agree.
Import ListNotations.
Open Scope string_scope.
Open Scope Z_scope.

(* the instruction's opcode is known ([icode i = C "codeX"] among the hypotheses): select that case of step_gen.
   Only the opcode's number is looked up and compared; no operator is unfolded. *)
Ltac pick_case i :=
  destruct i as [? ? ? ? ?]; cbn [icode iA iB iC ipos] in *; subst;
  rewrite step_gen_num_eq; C_to_num; gen_eval.

Inductive binop :=
| BRes (f : value -> value -> res value)      (* may panic / be unmodelled: result through slift *)
| BPlain (f : value -> value -> value).

(* opcode, operands swapped?, operator *)
Definition vm_binops : list (string * bool * binop) :=
  [ ("codeAdd", false, BRes Value_opAdd);
    ("codeSub", false, BPlain Value_opSub);
    ("codeMul", false, BPlain Value_opMul);
    ("codeDiv", false, BRes Value_opDiv);
    ("codeMod", false, BRes Value_opMod);
    ("codeLt", false, BRes Value_opLt);
    ("codeGt", true, BRes Value_opLt);
    ("codeLte", false, BRes Value_opLte);
    ("codeGte", true, BRes Value_opLte);
    ("codeEq", false, BRes Value_opEq);
    ("codeNeq", false, BRes Value_opNeq);
    ("codeBitAnd", false, BPlain Value_opBitAnd);
    ("codeBitOr", false, BPlain Value_opBitOr);
    ("codeBitXor", false, BPlain Value_opBitXor);
    ("codeBitLsh", false, BRes Value_opBitLsh);
    ("codeBitRsh", false, BRes Value_opBitRsh) ].

(* a = LEFT operand (pushed first), b = RIGHT operand (top of the stack); both are popped, the result is pushed *)
Definition binop_result (sw : bool) (f : binop) (slots : list value) (a b : value) (rest : list value) (s : st) : sres :=
  let (x, y) := if sw then (b, a) else (a, b) in
  match f with
  | BRes g => slift (g x y) s (fun r => SNext slots (r :: rest) s)
  | BPlain g => SNext slots (g x y :: rest) s
  end.

Theorem vm_binop_step : forall name sw f, In (name, sw, f) vm_binops ->
  forall i slots a b rest s, icode i = C name ->
  step_gen i slots (b :: a :: rest) s = Some (binop_result sw f slots a b rest s).
Proof.
  intros name sw f Hin i slots a b rest s Hc.
  unfold vm_binops in Hin. cbv beta iota delta [In] in Hin.
  repeat (destruct Hin as [Hin | Hin];
          [ injection Hin as <- <- <-; unfold binop_result; pick_case i; reflexivity | ]).
  destruct Hin.
Qed.

Theorem vm_binop_under : forall name sw f, In (name, sw, f) vm_binops ->
  forall i slots ops s, icode i = C name -> (List.length ops < 2)%nat ->
  exists w, step_gen i slots ops s = Some (SStuck w).
Proof.
  intros name sw f Hin i slots ops s Hc Hl.
  destruct ops as [|x [|y r]]; [| |cbn in Hl; lia]; clear Hl.
  all: unfold vm_binops in Hin; cbv beta iota delta [In] in Hin.
  all: repeat (destruct Hin as [Hin | Hin]; [ injection Hin as <- <- <-; pick_case i; eexists; reflexivity | ]).
  all: destruct Hin.
Qed.

Theorem vm_incdec_step : forall i slots a rest s, icode i = C "codeIncDec" ->
  step_gen i slots (a :: rest) s =
  Some (slift (Value_incDec a (iA i)) s (fun r => SNext slots (r :: rest) s)).
Proof. intros i slots a rest s Hc. pick_case i; reflexivity. Qed.

Theorem vm_cast_step : forall i slots a rest s, icode i = C "codeCast" ->
  step_gen i slots (a :: rest) s = Some (SNext slots (Value_assign a (iA i) :: rest) s).
Proof. intros i slots a rest s Hc. pick_case i; reflexivity. Qed.

Theorem vm_convert_step : forall i slots a rest s, icode i = C "codeConvert" ->
  step_gen i slots (a :: rest) s =
  Some (slift (Value_convert a (iA i)) s (fun r => SNext slots (r :: rest) s)).
Proof. intros i slots a rest s Hc. pick_case i; reflexivity. Qed.

Theorem vm_negate_step : forall i slots a rest s, icode i = C "codeNegate" ->
  step_gen i slots (a :: rest) s =
  Some (SNext slots (Value_opMul a (fn_newUntypedInt (-1)) :: rest) s).
Proof. intros i slots a rest s Hc. pick_case i; reflexivity. Qed.

(* ^a : the operand is first detached from its named type (assign to TypeNil), the all-ones uint32 is
   converted to the operand's type, and the two are xor-ed *)
Theorem vm_complement_step : forall i slots a rest s, icode i = C "codeBitComplement" ->
  step_gen i slots (a :: rest) s =
  Some (let a' := Value_assign a TypeNil in
        slift (Value_convert (fn_Uint32 4294967295) (vt a')) s
              (fun m => SNext slots (Value_opBitXor a' m :: rest) s)).
Proof. intros i slots a rest s Hc. pick_case i; reflexivity. Qed.

Theorem vm_not_step : forall i slots a rest s, icode i = C "codeNot" ->
  step_gen i slots (a :: rest) s = Some (SNext slots (fn_Bool (negb (Value_Bool a)) :: rest) s).
Proof. intros i slots a rest s Hc. pick_case i; reflexivity. Qed.

Theorem vm_localset_step : forall i slots a rest s l, icode i = C "codeLocalSet" ->
  znth slots (iA i) = Some l ->
  step_gen i slots (a :: rest) s =
  Some (SNext (zset slots (iA i) (Value_assign a (vt l))) rest s).
Proof.
  intros i slots a rest s l Hc Hz. pick_case i. rewrite Hz. reflexivity.
Qed.

Theorem vm_localincdec_step : forall i slots ops s l, icode i = C "codeLocalIncDec" ->
  znth slots (iA i) = Some l ->
  step_gen i slots ops s =
  Some (slift (Value_incDec l (iB i)) s (fun r => SNext (zset slots (iA i) r) ops s)).
Proof.
  intros i slots ops s l Hc Hz. pick_case i. rewrite Hz. reflexivity.
Qed.

Theorem vm_globalset_step : forall i slots a rest s g, icode i = C "codeGlobalSet" ->
  znth (globals s) (iA i) = Some g ->
  step_gen i slots (a :: rest) s =
  Some (SNext slots rest (set_global s (iA i) (Value_assign a (vt g)))).
Proof.
  intros i slots a rest s g Hc Hz. pick_case i. rewrite Hz. reflexivity.
Qed.

(* GLOBALZERO (a package-level `var x T`): a variable that already holds a non-nil value is left alone *)
Theorem vm_globalzero_step : forall i slots ops s g, icode i = C "codeGlobalZero" ->
  znth (globals s) (iA i) = Some g ->
  step_gen i slots ops s =
    Some (if Value_IsNil g then SNext slots ops (set_global s (iA i) (Value_assign (fn_newZero (iB i)) (vt g)))
          else SNext slots ops s).
Proof.
  intros i slots ops s g Hc Hz. pick_case i. rewrite Hz. destruct (Value_IsNil g); reflexivity.
Qed.

Definition vm_local_binops : list (string * binop) :=
  [ ("codeLocalAdd", BRes Value_opAdd);
    ("codeLocalSub", BPlain Value_opSub);
    ("codeLocalMul", BPlain Value_opMul);
    ("codeLocalDiv", BRes Value_opDiv) ].

Theorem vm_localop_step : forall name f, In (name, f) vm_local_binops ->
  forall i slots ops s l1 l2, icode i = C name ->
  znth slots (iA i) = Some l1 -> znth slots (iB i) = Some l2 ->
  step_gen i slots ops s = Some (binop_result false f slots l1 l2 ops s).
Proof.
  intros name f Hin i slots ops s l1 l2 Hc H1 H2.
  unfold vm_local_binops in Hin. cbv beta iota delta [In] in Hin.
  repeat (destruct Hin as [Hin | Hin];
          [ injection Hin as <- <-; unfold binop_result; pick_case i; rewrite H1, H2; reflexivity | ]).
  destruct Hin.
Qed.

Theorem vm_localadd_step : forall i slots ops s l1 l2, icode i = C "codeLocalAdd" ->
  znth slots (iA i) = Some l1 -> znth slots (iB i) = Some l2 ->
  step_gen i slots ops s = Some (slift (Value_opAdd l1 l2) s (fun r => SNext slots (r :: ops) s)).
Proof. intros. apply (vm_localop_step "codeLocalAdd" (BRes Value_opAdd)); auto. simpl; tauto. Qed.

Theorem vm_localsub_step : forall i slots ops s l1 l2, icode i = C "codeLocalSub" ->
  znth slots (iA i) = Some l1 -> znth slots (iB i) = Some l2 ->
  step_gen i slots ops s = Some (SNext slots (Value_opSub l1 l2 :: ops) s).
Proof. intros. apply (vm_localop_step "codeLocalSub" (BPlain Value_opSub)); auto. simpl; tauto. Qed.

Theorem vm_localmul_step : forall i slots ops s l1 l2, icode i = C "codeLocalMul" ->
  znth slots (iA i) = Some l1 -> znth slots (iB i) = Some l2 ->
  step_gen i slots ops s = Some (SNext slots (Value_opMul l1 l2 :: ops) s).
Proof. intros. apply (vm_localop_step "codeLocalMul" (BPlain Value_opMul)); auto. simpl; tauto. Qed.

Theorem vm_localdiv_step : forall i slots ops s l1 l2, icode i = C "codeLocalDiv" ->
  znth slots (iA i) = Some l1 -> znth slots (iB i) = Some l2 ->
  step_gen i slots ops s = Some (slift (Value_opDiv l1 l2) s (fun r => SNext slots (r :: ops) s)).
Proof. intros. apply (vm_localop_step "codeLocalDiv" (BRes Value_opDiv)); auto. simpl; tauto. Qed.

Lemma slift_not_stuck : forall r s k w, (forall v, k v <> SStuck w) -> slift r s k <> SStuck w.
Proof. intros r s k w Hk. destruct r; simpl; [ apply Hk | discriminate | discriminate ]. Qed.

Lemma binop_result_not_stuck : forall sw f slots a b rest s w, binop_result sw f slots a b rest s <> SStuck w.
Proof.
  intros sw f slots a b rest s w. unfold binop_result.
  destruct sw, f; try discriminate; apply slift_not_stuck; discriminate.
Qed.

Lemma step1_of_step_gen : forall grow ext_get ext_set ext_len ext_getattr ext_setattr codes pc i slots ops s r,
  step_gen i slots ops s = Some r -> (forall w, r <> SStuck w) ->
  step1 grow ext_get ext_set ext_len ext_getattr ext_setattr codes pc i slots ops s = r.
Proof.
  intros grow ext_get ext_set ext_len ext_getattr ext_setattr codes pc i slots ops s r Hg Hns.
  destruct (steps_agree grow ext_get ext_set ext_len ext_getattr ext_setattr codes pc i slots ops s r Hg)
    as [He | [w1 [w2 [He _]]]].
  - symmetry; exact He.
  - exfalso; exact (Hns w1 He).
Qed.

Corollary vm_binop_step1 : forall name sw f, In (name, sw, f) vm_binops ->
  forall grow ext_get ext_set ext_len ext_getattr ext_setattr codes pc i slots a b rest s, icode i = C name ->
  step1 grow ext_get ext_set ext_len ext_getattr ext_setattr codes pc i slots (b :: a :: rest) s =
  binop_result sw f slots a b rest s.
Proof.
  intros name sw f Hin grow ext_get ext_set ext_len ext_getattr ext_setattr codes pc i slots a b rest s Hc.
  apply step1_of_step_gen.
  - exact (vm_binop_step name sw f Hin i slots a b rest s Hc).
  - intro w; apply binop_result_not_stuck.
Qed.

Corollary vm_incdec_step1 :
  forall grow ext_get ext_set ext_len ext_getattr ext_setattr codes pc i slots a rest s, icode i = C "codeIncDec" ->
  step1 grow ext_get ext_set ext_len ext_getattr ext_setattr codes pc i slots (a :: rest) s =
  slift (Value_incDec a (iA i)) s (fun r => SNext slots (r :: rest) s).
Proof.
  intros grow ext_get ext_set ext_len ext_getattr ext_setattr codes pc i slots a rest s Hc.
  apply step1_of_step_gen.
  - exact (vm_incdec_step i slots a rest s Hc).
  - intro w; apply slift_not_stuck; discriminate.
Qed.

Print Assumptions vm_binop_step.
Print Assumptions vm_binop_under.
Print Assumptions vm_incdec_step.
Print Assumptions vm_cast_step.
Print Assumptions vm_convert_step.
Print Assumptions vm_negate_step.
Print Assumptions vm_complement_step.
Print Assumptions vm_not_step.
Print Assumptions vm_localset_step.
Print Assumptions vm_localincdec_step.
Print Assumptions vm_globalset_step.
Print Assumptions vm_localop_step.
Print Assumptions vm_localadd_step.
Print Assumptions vm_localsub_step.
Print Assumptions vm_localmul_step.
Print Assumptions vm_localdiv_step.
Print Assumptions slift_not_stuck.
Print Assumptions binop_result_not_stuck.
Print Assumptions step1_of_step_gen.
Print Assumptions vm_binop_step1.
Print Assumptions vm_incdec_step1.
