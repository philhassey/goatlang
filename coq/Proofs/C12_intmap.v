(* C12: functional correctness of the robin-hood table of Model/IntMap.v.  Inv is the
   representation invariant, find the abstract lookup; every probing loop is brought to
   C12_table.probe (probe_fold), and find_cases says what that probe returns under Inv.
   The theorems inv_new .. assign_spec give each operation as a change of find that keeps Inv. *)
From Coq Require Import ZArith List Bool Lia PeanoNat.
From Coq Require Import ZifyNat.
From GV Require Import Model.IntMap Proofs.C12_cyc Proofs.C12_table.
Import ListNotations.

(* Global, and it reaches every file that loads this one: from here on lia knows / and mod.
   Needed for mx = n*3/4, mn = n/4 and the (.. mod n) of the distance clause. *)
Ltac Zify.zify_post_hook ::= Z.div_mod_to_equations.

Lemma pow2_half : forall n, (exists j, n = 2 ^ j) -> 2 <= n -> exists j, n / 2 = 2 ^ j.
Proof.
  intros n [j Hj] Hn. destruct j as [|j].
  - cbn in Hj. lia.
  - exists j. rewrite Hj, Nat.pow_succ_r'. rewrite Nat.mul_comm. apply Nat.div_mul. lia.
Qed.

Section Spec.
  Context {V : Type}.
  Variable vzero : V.
  Variable assignV : V -> V -> V.

  Notation imap := (@imap V).
  Notation get := (get vzero).
  Notation set := (set vzero).
  Notation assign := (assign vzero assignV).
  Notation delete := (delete vzero).
  Notation newIntMap := (newIntMap vzero).

  (* The representation invariant (n = size m, d p = cdist of cell p; mx and mn as init in
     intmap.go sets them).  d (next p) <= d p + 1 is stated for EVERY p, occupied or not: this one
     clause is the robin-hood order and also says that all cells cyclically between home q and p
     are occupied (an empty p forces d (next p) <= 1). *)
  Definition Inv (m : imap) : Prop :=
    let n := size m in
    let dd := fun p => cdist (get_cell vzero (cells m) p) in
    let kk := fun p => ckey (get_cell vzero (cells m) p) in
    (exists j, n = 2 ^ j) /\ 16 <= n /\
    mx m = n * 3 / 4 /\ mn m = n / 4 /\
    total m = length (filter (fun c => negb (cdist c =? 0)) (cells m)) /\
    total m <= mx m /\
    length (cells m) = n /\
    (forall p, p < n -> dd p <> 0 -> dd p = S ((p + n - home n (kk p)) mod n)) /\
    (forall p, p < n -> dd (next n p) <= S (dd p)) /\
    (forall p q, p < n -> q < n -> dd p <> 0 -> dd q <> 0 -> kk p = kk q -> p = q).

  (* the abstract view: what a lookup returns, as a total function *)
  Definition find (m : imap) (k : Z) : option V :=
    match get m k with Some r => r | None => None end.

  Notation WF := (WF vzero).
  Notation HasKV := (HasKV vzero).
  Notation HasKVex := (HasKVex vzero).
  Notation probe := (probe vzero).
  Notation dist_at := (dist_at vzero).
  Notation key_at := (key_at vzero).
  Notation val_at := (val_at vzero).

  (* everything but [total <= mx] *)
  Record Pre (m : imap) : Prop := mkPre {
    pre_pow2 : exists j, size m = 2 ^ j;
    pre_min : 16 <= size m;
    pre_mx : mx m = size m * 3 / 4;
    pre_mn : mn m = size m / 4;
    pre_total : total m = count (cells m);
    pre_wf : WF (size m) (cells m) }.

  (* Inv spells Pre /\ total <= mx out for Props/C12 without the names of C12_table; the two
     are convertible clause by clause. *)
  Lemma Inv_iff : forall m, Inv m <-> (Pre m /\ total m <= mx m).
  Proof.
    intros m. unfold Inv. cbv zeta. split.
    - intros (H1 & H2 & H3 & H4 & H5 & H6 & H7 & H8 & H9 & H10).
      split; [|exact H6]. split; auto. split; auto.
    - intros [[H1 H2 H3 H4 H5 [H7 H8 H9 H10]] H6].
      repeat split; auto.
  Qed.

  Lemma Inv_pre : forall m, Inv m -> Pre m.
  Proof. intros m H. apply Inv_iff in H. tauto. Qed.

  Lemma Pre_n2 : forall m, Pre m -> 2 <= size m.
  Proof. intros m H. pose proof (pre_min m H). lia. Qed.

  Lemma Inv_count_lt : forall m, Inv m -> count (cells m) < size m.
  Proof.
    intros m H. apply Inv_iff in H. destruct H as [[_ Hmin Hmx _ Ht _] Hle].
    rewrite <- Ht. lia.
  Qed.

  (* Each probing loop of the model is [probe] followed by an action: E on an empty
     cell, G p on the cell p that holds the key.  Both premises hold by computation. *)
  Lemma probe_fold : forall {R} n cs k (E : option R) (G : nat -> option R) (F : nat -> nat -> option R),
    (forall i, F 0 i = None) ->
    (forall f i, F (S f) i =
       if cdist (get_cell vzero cs i) =? 0 then E
       else if Z.eqb (ckey (get_cell vzero cs i)) k then G i else F f (next n i)) ->
    forall f i, F f i = match probe n f cs i k with None => None | Some None => E | Some (Some p) => G p end.
  Proof.
    intros R n cs k E G F F0 FS. induction f as [|f IH]; intros i; [apply F0|].
    rewrite FS. cbn [C12_table.probe].
    destruct (cdist (get_cell vzero cs i) =? 0); [reflexivity|].
    destruct (Z.eqb (ckey (get_cell vzero cs i)) k); [reflexivity|]. apply IH.
  Qed.

  Lemma get_probe : forall m k, get m k =
    match probe (size m) (S (size m)) (cells m) (home (size m) k) k with
    | None => None
    | Some None => Some None
    | Some (Some p) => Some (Some (val_at (cells m) p))
    end.
  Proof.
    intros m k. unfold IntMap.get.
    apply (probe_fold (size m) (cells m) k _ _ (fun f i => get_loop vzero f (size m) (cells m) i k)); reflexivity.
  Qed.

  (* What the probe finds under the invariant, with the facts every operation starts from *)
  Lemma find_cases : forall m k, Inv m ->
    Pre m /\ 2 <= size m /\ total m <= mx m /\
    ((exists p, probe (size m) (S (size m)) (cells m) (home (size m) k) k = Some (Some p) /\
       p < size m /\ dist_at (cells m) p <> 0 /\ key_at (cells m) p = k /\ find m k = Some (val_at (cells m) p))
    \/ (probe (size m) (S (size m)) (cells m) (home (size m) k) k = Some None /\
        (forall v, ~ HasKV (cells m) k v) /\ find m k = None)).
  Proof.
    intros m k HI. destruct (proj1 (Inv_iff m) HI) as [HP Hle].
    split; [exact HP|]. split; [exact (Pre_n2 m HP)|]. split; [exact Hle|].
    destruct (probe_cases vzero (size m) (Pre_n2 m HP) (cells m) k (S (size m)) (pre_wf m HP)
                (Inv_count_lt m HI) ltac:(lia)) as [[p [Hpr Hp]] | [Hpr Hno]].
    - left. exists p. split; [exact Hpr|]. repeat split; try tauto.
      unfold find. rewrite get_probe, Hpr. reflexivity.
    - right. split; [exact Hpr|]. split; [exact Hno|].
      unfold find. rewrite get_probe, Hpr. reflexivity.
  Qed.

  Lemma find_some : forall m k v, Inv m -> (find m k = Some v <-> HasKV (cells m) k v).
  Proof.
    intros m k v HI.
    destruct (find_cases m k HI) as (HP & _ & _ & [[p (Hpr & Hp & Hdp & Hk & Hf)] | (Hpr & Hno & Hf)]);
      pose proof (wf_len _ _ _ (pre_wf m HP)) as Hl; rewrite Hf.
    - split.
      + intros E. inversion E; subst v. exists p. rewrite Hl. auto.
      + intros [q (Hq & Hdq & Hkq & Hvq)]. rewrite Hl in Hq.
        assert (p = q) by (apply (wf_uniq _ _ _ (pre_wf m HP)); auto; congruence).
        subst q. congruence.
    - split; [discriminate|]. intros H. destruct (Hno v H).
  Qed.

  Lemma find_none : forall m k, Inv m -> (forall v, ~ HasKV (cells m) k v) -> find m k = None.
  Proof.
    intros m k HI H. destruct (find m k) as [v|] eqn:E; [|reflexivity].
    exfalso. apply (H v). apply find_some; auto.
  Qed.

  Lemma find_ext : forall m m' k, Inv m -> Inv m' ->
    (forall v, HasKV (cells m') k v <-> HasKV (cells m) k v) -> find m' k = find m k.
  Proof.
    intros m m' k HI HI' H.
    assert (G : forall v, find m' k = Some v <-> find m k = Some v).
    { intros v. rewrite (find_some m' k v HI'), (find_some m k v HI). apply H. }
    destruct (find m' k) as [x|], (find m k) as [y|]; try reflexivity.
    - symmetry. apply G. reflexivity.
    - destruct (G x) as [G1 _]. discriminate (G1 eq_refl).
    - destruct (G y) as [_ G2]. discriminate (G2 eq_refl).
  Qed.

  Lemma kv_put : forall m m' k v, Inv m -> Inv m' ->
    (forall k' v', HasKV (cells m') k' v' <->
       ((HasKV (cells m) k' v' /\ k' <> k) \/ (k' = k /\ v' = v))) ->
    find m' k = Some v /\ (forall k', k' <> k -> find m' k' = find m k').
  Proof.
    intros m m' k v HI HI' H. split.
    - apply find_some; auto. apply H. right. auto.
    - intros k' Hne. apply find_ext; auto. intros v'. rewrite H. tauto.
  Qed.

  Lemma kv_del : forall m m' k, Inv m -> Inv m' ->
    (forall k' v', HasKV (cells m') k' v' <-> (HasKV (cells m) k' v' /\ k' <> k)) ->
    find m' k = None /\ (forall k', k' <> k -> find m' k' = find m k').
  Proof.
    intros m m' k HI HI' H. split.
    - apply find_none; auto. intros v Hv. apply H in Hv. tauto.
    - intros k' Hne. apply find_ext; auto. intros v'. rewrite H. tauto.
  Qed.

  Lemma grow_to_ok : forall fuel sz need, (exists j, sz = 2 ^ j) -> 16 <= sz ->
    (exists j, grow_to fuel sz need = 2 ^ j) /\ 16 <= grow_to fuel sz need.
  Proof.
    induction fuel as [|fuel IH]; intros sz need Hp Hm; cbn [grow_to]; [auto|].
    destruct (sz <? need); [|auto].
    apply IH; [|lia]. destruct Hp as [j Hj]. exists (S j). rewrite Nat.pow_succ_r'. lia.
  Qed.

  Lemma Inv_init : forall sz, (exists j, sz = 2 ^ j) -> 16 <= sz -> Inv (init vzero sz 0).
  Proof.
    intros sz Hp Hm. apply Inv_iff. unfold init. split; [split|]; cbn [size mx mn total cells]; auto.
    - rewrite count_repeat. reflexivity.
    - apply WF_repeat. lia.
    - lia.
  Qed.

  Lemma no_kv_repeat : forall sz k v, ~ HasKV (repeat (empty_cell vzero) sz) k v.
  Proof. intros sz k v [q (_ & Hd & _)]. rewrite d_repeat in Hd. contradiction. Qed.

  (* using All: the theorems take both section variables, as Props/C12 passes them *)
  Theorem inv_new : forall alloc, Inv (newIntMap alloc).
  Proof using All.
    intros alloc. unfold IntMap.newIntMap.
    destruct (grow_to_ok 64 intMapMin (alloc * 2)) as [Hp Hm].
    - exists 4. reflexivity.
    - unfold intMapMin. lia.
    - apply Inv_init; assumption.
  Qed.

  (* the budget of Get is never exhausted: its Go `for {}` loop terminates
     (for Set, Assign and Delete this is the [= Some m'] of their theorems) *)
  Theorem get_total : forall m k, Inv m -> exists r, get m k = Some r.
  Proof using All.
    intros m k HI. rewrite get_probe.
    destruct (find_cases m k HI) as (_ & _ & _ & [[p (Hpr & _)] | (Hpr & _)]); rewrite Hpr; eauto.
  Qed.

  Theorem new_empty : forall alloc k, find (newIntMap alloc) k = None /\ len (newIntMap alloc) = 0.
  Proof using All.
    intros alloc k. split; [|reflexivity].
    apply find_none; [apply inv_new|]. intros v. apply no_kv_repeat.
  Qed.

  (* resize clamps the requested size at 16 *)
  Lemma resize_ok : forall m newsz,
    Pre m ->
    (exists j, Nat.max 16 newsz = 2 ^ j) ->
    total m <= Nat.max 16 newsz * 3 / 4 ->
    exists m', resize vzero m newsz = Some m' /\ Inv m' /\ total m' = total m /\
      forall k v, HasKV (cells m') k v <-> HasKV (cells m) k v.
  Proof.
    intros m newsz HP Hp2 Hle. unfold resize, intMapMin.
    replace (if newsz <? 16 then 16 else newsz) with (Nat.max 16 newsz)
      by (destruct (Nat.ltb_spec newsz 16); lia).
    set (sz := Nat.max 16 newsz) in *.
    assert (Hsz2 : 2 <= sz) by lia.
    destruct (Nat.eqb_spec sz (size m)) as [E|E].
    - exists m. split; [reflexivity|]. split; [|split; [reflexivity | tauto]].
      apply Inv_iff. split; [exact HP|]. rewrite (pre_mx m HP), <- E. exact Hle.
    - destruct HP as [Hpow Hmin Hmx Hmn Htot Hwf].
      pose proof (wf_len _ _ _ Hwf) as Hl.
      destruct (reinsert_ok vzero sz Hsz2 (cells m) (repeat (empty_cell vzero) sz))
        as [cs' (Hrun & Hwf' & Hcnt & Hkv)].
      + apply (WF_repeat vzero sz Hsz2).
      + apply (nodup_keys vzero). rewrite Hl. apply (wf_uniq _ _ _ Hwf).
      + intros k v H. destruct (no_kv_repeat sz k v H).
      + rewrite count_repeat. fold (count (cells m)). rewrite <- Htot. lia.
      + unfold init. cbn [cells total size mn mx]. rewrite Hrun.
        eexists. split; [reflexivity|]. cbn [cells total]. split; [|split; [reflexivity|]].
        * apply Inv_iff. rewrite count_repeat in Hcnt. cbn [Nat.add] in Hcnt. fold (count (cells m)) in Hcnt.
          split; [split|]; cbn [size mx mn total cells]; auto; lia.
        * intros k v. rewrite Hkv, <- (HasKV_In vzero). pose proof (no_kv_repeat sz k v). tauto.
  Qed.

  (* the resize that follows an insertion (grow) or a deletion (shrink) when test c fires *)
  Lemma maybe_resize_ok : forall m (c : bool) newsz, Pre m ->
    (if c then (exists j, Nat.max 16 newsz = 2 ^ j) /\ total m <= Nat.max 16 newsz * 3 / 4
     else total m <= mx m) ->
    exists m', (if c then resize vzero m newsz else Some m) = Some m' /\ Inv m' /\ total m' = total m /\
      forall k v, HasKV (cells m') k v <-> HasKV (cells m) k v.
  Proof.
    intros m c newsz HP H. destruct c.
    - destruct H. apply resize_ok; auto.
    - exists m. split; [reflexivity|]. split; [apply Inv_iff; auto|]. split; [reflexivity|tauto].
  Qed.

  (* overwriting the value of an occupied cell: the present-key case of Set and Assign *)
  Lemma overwrite_spec : forall m p v, Inv m -> p < size m -> dist_at (cells m) p <> 0 ->
    let m' := mkMap (set_cell (cells m) p (mkCell (dist_at (cells m) p) (key_at (cells m) p) v))
                    (total m) (size m) (mn m) (mx m) in
    Inv m' /\ find m' (key_at (cells m) p) = Some v /\
    (forall k', k' <> key_at (cells m) p -> find m' k' = find m k').
  Proof.
    intros m p v HI Hp Hdp m'. destruct (proj1 (Inv_iff m) HI) as [HP Hle].
    destruct (update_ok vzero (size m) (Pre_n2 m HP) (cells m) p v (pre_wf m HP) Hp Hdp) as (Hwf' & Hcnt & Hkv).
    assert (HI' : Inv m').
    { apply Inv_iff. destruct HP. split; [split|]; cbn [size mx mn total cells m']; auto. congruence. }
    split; [exact HI'|]. exact (kv_put m m' _ v HI HI' Hkv).
  Qed.

  Theorem set_spec : forall m k v, Inv m ->
    exists m', set m k v = Some m' /\ Inv m' /\
      find m' k = Some v /\ (forall k', k' <> k -> find m' k' = find m k') /\
      len m' = (if find m k then len m else S (len m)).
  Proof using All.
    intros m k v HI. unfold IntMap.set.
    erewrite (probe_fold (size m) (cells m) k _ _ (fun f i => set_loop vzero f m i k v)) by reflexivity.
    destruct (find_cases m k HI) as (HP & Hn2 & Hle & [[p (Hpr & Hp & Hdp & Hk & Hf)] | (Hpr & Hno & Hf)]);
      rewrite Hpr, Hf.
    - subst k. destruct (overwrite_spec m p v HI Hp Hdp) as (HI' & H1 & H2).
      eexists. split; [reflexivity|]. split; [exact HI'|]. split; [exact H1|]. split; [exact H2|]. reflexivity.
    - destruct (insert_ok vzero (size m) Hn2 (cells m) k v (pre_wf m HP) (Inv_count_lt m HI) Hno)
        as [cs1 (Hins & Hwf1 & Hcnt1 & Hkv1)].
      rewrite Hins. cbv zeta. cbn [mx total size].
      set (m1 := mkMap cs1 (S (total m)) (size m) (mn m) (mx m)).
      assert (HP1 : Pre m1).
      { destruct HP. split; unfold m1; cbn [size mx mn total cells]; auto. congruence. }
      destruct (maybe_resize_ok m1 (mx m <? S (total m)) (size m * 2) HP1) as [m' (Hr & HI' & Ht' & Hkv')].
      { pose proof (pre_min m HP) as Hmin. pose proof (pre_mx m HP) as Hmx. cbn [total mx m1].
        destruct (Nat.ltb_spec (mx m) (S (total m))); [|lia].
        replace (Nat.max 16 (size m * 2)) with (2 * size m) by lia. split; [|lia].
        destruct (pre_pow2 m HP) as [j Hj]. exists (S j). rewrite Nat.pow_succ_r', Hj. reflexivity. }
      cbn [cells m1 total] in Hkv', Ht'.
      exists m'. split; [exact Hr|]. split; [exact HI'|].
      destruct (kv_put m m' k v HI HI') as [H1 H2].
      { intros k' v'. rewrite Hkv', Hkv1. split; [|tauto].
        intros [H|H]; [|right; exact H]. left. split; [exact H|]. intros ->. exact (Hno _ H). }
      split; [exact H1|]. split; [exact H2|]. unfold len. exact Ht'.
  Qed.

  (* the last step of the backward shift: clear cell prev, then maybe shrink *)
  Lemma shift_finish : forall m, Pre m -> forall tot cs prev i,
    SH vzero (size m) prev cs -> i = next (size m) prev -> dist_at cs i <= 1 -> count cs = tot -> tot <= mx m ->
    exists m',
      (let p := get_cell vzero cs prev in
       let m' := mkMap (set_cell cs prev (mkCell 0 (ckey p) (cval p))) (tot - 1) (size m) (mn m) (mx m) in
       if total m' <? mn m' then resize vzero m' (size m' / 2) else Some m') = Some m' /\
      Inv m' /\ total m' = tot - 1 /\
      forall k v, HasKV (cells m') k v <-> HasKVex prev cs k v.
  Proof.
    intros m HP tot cs prev i Hsh Ei Hd1 Hcnt Htot.
    destruct (shift_final vzero (size m) (Pre_n2 m HP) cs prev i Hsh Ei Hd1) as (Hwf' & Hc' & Hkv').
    cbv zeta. fold (key_at cs prev). fold (val_at cs prev).
    set (cs' := set_cell cs prev (mkCell 0 (key_at cs prev) (val_at cs prev))) in *.
    set (m1 := mkMap cs' (tot - 1) (size m) (mn m) (mx m)).
    assert (HP1 : Pre m1).
    { destruct HP. split; cbn [size mx mn total cells m1]; auto. lia. }
    cbn [total mn size m1].
    destruct (maybe_resize_ok m1 (tot - 1 <? mn m) (size m / 2) HP1) as [m' (Hr & HI' & Ht' & Hkv)].
    { pose proof (pre_min m HP) as Hmin. pose proof (pre_mn m HP) as Hmn. cbn [total mx m1].
      destruct (Nat.ltb_spec (tot - 1) (mn m)); [|lia]. split; [|lia].
      destruct (Nat.max_spec 16 (size m / 2)) as [[_ ->]|[_ ->]]; [|exists 4; reflexivity].
      apply pow2_half; [exact (pre_pow2 m HP)|lia]. }
    exists m'. split; [exact Hr|]. split; [exact HI'|]. split; [exact Ht'|].
    intros k v. rewrite Hkv. apply Hkv'.
  Qed.

  (* e is an empty cell: the shift stops there at the latest *)
  Lemma shift_loop_ok : forall m, Pre m -> forall tot e, e < size m -> tot <= mx m ->
    forall fuel cs prev i,
    SH vzero (size m) prev cs -> i = next (size m) prev -> dist_at cs e = 0 -> cyc_dist (size m) i e < fuel ->
    count cs = tot ->
    exists m', shift_loop vzero fuel (mkMap cs tot (size m) (mn m) (mx m)) prev i = Some m' /\
      Inv m' /\ total m' = tot - 1 /\
      forall k v, HasKV (cells m') k v <-> HasKVex prev cs k v.
  Proof.
    intros m HP tot e He Htot. pose proof (Pre_n2 m HP) as Hn2.
    induction fuel as [|f IH]; intros cs prev i Hsh Ei Hde Hf Hcnt; [lia|].
    cbn [shift_loop cells total size mn mx].
    assert (Hi : i < size m) by (rewrite Ei; apply next_lt; lia).
    destruct (Nat.leb_spec (cdist (get_cell vzero cs i)) 1) as [H|H].
    - apply (shift_finish m HP tot cs prev i); auto.
    - fold (dist_at cs i) in H |- *. fold (key_at cs i). fold (val_at cs i).
      destruct (shift_step vzero (size m) Hn2 cs prev i Hsh Ei ltac:(lia)) as (Hsh' & Hc' & Hd' & Hkv').
      set (cs' := set_cell cs prev (mkCell (dist_at cs i - 1) (key_at cs i) (val_at cs i))) in *.
      assert (Hne : i <> e) by (intro E; rewrite E, Hde in H; lia).
      pose proof (cd_next_l (size m) i e Hi He Hne) as Hs.
      assert (Hpe : e <> prev) by (intro E; apply (sh_occ _ _ _ _ Hsh); rewrite <- E; exact Hde).
      destruct (IH cs' i (next (size m) i) Hsh' eq_refl) as [m' (Hr & HI' & Ht' & Hkv)]; try lia.
      { rewrite Hd' by exact Hpe. exact Hde. }
      exists m'. split; [exact Hr|]. split; [exact HI'|]. split; [exact Ht'|].
      intros k v. rewrite Hkv. apply Hkv'.
  Qed.

  Theorem delete_spec : forall m k, Inv m ->
    exists m', delete m k = Some m' /\ Inv m' /\
      find m' k = None /\ (forall k', k' <> k -> find m' k' = find m k') /\
      len m' = (if find m k then len m - 1 else len m).
  Proof using All.
    intros m k HI. unfold IntMap.delete.
    erewrite (probe_fold (size m) (cells m) k _ _ (fun f i => delete_loop vzero f m i k)) by reflexivity.
    destruct (find_cases m k HI) as (HP & Hn2 & Hle & [[p (Hpr & Hp & Hdp & Hk & Hf)] | (Hpr & Hno & Hf)]);
      rewrite Hpr, Hf.
    - pose proof (wf_len _ _ _ (pre_wf m HP)) as Hl.
      destruct (exists_empty vzero (cells m)) as [e [He Hde]].
      { rewrite Hl. apply Inv_count_lt. exact HI. }
      rewrite Hl in He.
      pose proof (cd_lt (size m) (next (size m) p) e ltac:(lia)) as Hcd.
      destruct (shift_loop_ok m HP (total m) e He Hle (S (size m)) (cells m) p (next (size m) p)
                  (SH_init vzero (size m) (cells m) p (pre_wf m HP) Hp Hdp) eq_refl Hde ltac:(lia)
                  (eq_sym (pre_total m HP)))
        as [m' (Hr & HI' & Ht' & Hkv)].
      exists m'. split.
      { destruct m; exact Hr. }
      split; [exact HI'|].
      destruct (kv_del m m' k HI HI') as [H1 H2].
      { intros k' v'. rewrite Hkv, <- Hk.
        apply (HasKVex_init vzero (size m) Hn2); auto. apply (pre_wf m HP). }
      split; [exact H1|]. split; [exact H2|]. unfold len. exact Ht'.
    - exists m. split; [reflexivity|]. split; [exact HI|]. split; [exact Hf|]. auto.
  Qed.

  (* len counts the keys that are found *)
  Theorem len_spec : forall m, Inv m ->
    exists keys, NoDup keys /\ length keys = len m /\ forall k, In k keys <-> find m k <> None.
  Proof using All.
    intros m HI.
    pose proof (Inv_pre m HI) as HP.
    pose proof (wf_len _ _ _ (pre_wf m HP)) as Hl.
    exists (map ckey (filter (occ) (cells m))). split; [|split].
    - apply (nodup_keys vzero). rewrite Hl. apply (wf_uniq _ _ _ (pre_wf m HP)).
    - rewrite map_length. unfold len. rewrite (pre_total m HP). reflexivity.
    - intros k. rewrite in_map_iff. split.
      + intros [c [Hk Hc]].
        assert (Hf : find m k = Some (cval c)); [|congruence].
        apply find_some; [exact HI|]. apply (HasKV_In vzero), Exists_exists. exists c. auto.
      + intros Hne. destruct (find m k) as [v|] eqn:E; [|congruence].
        apply find_some in E; [|exact HI]. apply (HasKV_In vzero), Exists_exists in E.
        destruct E as [c (Hin & Hk & _)]. exists c. auto.
  Qed.

  Theorem assign_spec : forall m k v, Inv m ->
    exists m', assign m k v = Some m' /\ Inv m' /\
      find m' k = option_map (assignV v) (find m k) /\ (forall k', k' <> k -> find m' k' = find m k') /\
      len m' = len m.
  Proof using All.
    intros m k v HI. unfold IntMap.assign.
    erewrite (probe_fold (size m) (cells m) k _ _ (fun f i => assign_loop vzero assignV f m i k v)) by reflexivity.
    destruct (find_cases m k HI) as (_ & _ & _ & [[p (Hpr & Hp & Hdp & Hk & Hf)] | (Hpr & Hno & Hf)]);
      rewrite Hpr, Hf.
    - subst k. destruct (overwrite_spec m p (assignV v (val_at (cells m) p)) HI Hp Hdp) as (HI' & H1 & H2).
      eexists. split; [reflexivity|]. split; [exact HI'|]. split; [exact H1|]. split; [exact H2|]. reflexivity.
    - exists m. split; [reflexivity|]. split; [exact HI|]. cbn [option_map]. auto.
  Qed.
End Spec.
