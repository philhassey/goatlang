(* C17, part 5: there are no other function objects.  In every reachable state each
   object of the function heap is the object of a declared function / method, or a
   bound method whose target is one; so EVERY successful call of ANY function value,
   however it was obtained and wherever it was kept, runs a body of the version
   loaded last. *)
From Coq Require Import ZArith List Bool Lia.
From GV Require Import Model.Reload Proofs.C17_base Proofs.C17_reload Proofs.C17_hist.
Import ListNotations.
Open Scope Z_scope.

Section Closed.
  Variable S : sig.
  Hypothesis WF : wf_sig S.

  Definition owned (st : state) (a : addr) : Prop := exists k, key_ok S k /\ fn_addr st k = Some a.
  Definition Heap (st : state) : Prop :=
    forall c o, nth_error (funcs st) c = Some o -> owned st c \/ exists r f, o = FBound r f /\ owned st f.
  (* every entry of every method table is the object of a declared method *)
  Definition Meths (st : state) : Prop :=
    forall ta ty m f, nth_error (types st) ta = Some ty -> lookup m (tmethods ty) = Some (VFunc f) ->
      exists t, key_ok S (KMeth t m) /\ fn_addr st (KMeth t m) = Some f.
  Definition Closed (st : state) : Prop := Heap st /\ Meths st.

  Lemma Closed_init : Closed init_state.
  Proof. split; intros c o H; destruct c; discriminate. Qed.

  (* when declared keys keep their addresses, what was closed about the old objects stays so *)
  Lemma closed_mono : forall st st', (forall k a, key_ok S k -> fn_addr st k = Some a -> fn_addr st' k = Some a) ->
    Closed st ->
    (forall c o, nth_error (funcs st) c = Some o -> owned st' c \/ exists r f, o = FBound r f /\ owned st' f) /\
    (forall ta ty m f, nth_error (types st) ta = Some ty -> lookup m (tmethods ty) = Some (VFunc f) ->
       exists t, key_ok S (KMeth t m) /\ fn_addr st' (KMeth t m) = Some f).
  Proof.
    intros st st' ST [H M].
    assert (OM : forall a, owned st a -> owned st' a) by (intros a (k & KO & F); exists k; auto).
    split.
    - intros c o N. destruct (H c o N) as [O|(r & f & EQ & O)]; [left|right]; eauto.
    - intros ta ty m f N L. destruct (M ta ty m f N L) as (t & KO & FF). exists t. auto.
  Qed.

  Lemma hframe_closed : forall st st', hframe S st st' -> Closed st -> Closed st'.
  Proof.
    intros st st' HF C. pose proof HF as (T & (x & F & NB) & _).
    destruct (closed_mono st st') as [HOLD MOLD]; auto.
    { intros k a KO FA. now rewrite (hframe_fn_addr S WF _ _ _ HF KO). }
    split.
    - intros c o N. rewrite F in N. apply nth_app_cases in N. destruct N as [N|[_ IN]]; [eauto|].
      destruct (Forall_nth_error _ _ _ _ NB IN) as (r & f & ta & ty & m & -> & N & L).
      destruct (MOLD ta ty m f N L) as (t & KO & FF). right. exists r, f. split; auto. exists (KMeth t m). auto.
    - intros ta ty m f N. rewrite T in N. eauto.
  Qed.

  Lemma var_hframe : forall st n v, In n (vnames S) -> hframe S st (gset st n v).
  Proof.
    intros st n v V. apply hframe_same; auto using ext_refl.
    intros m [P|P]; apply gget_gset_other; intro; subst; [eapply t_not_v | eapply f_not_v]; eauto.
  Qed.

  Lemma exec_closed : forall st i st', instr_ok S i -> Inv S st -> Closed st -> exec_instr st i = Some st' -> Closed st'.
  Proof.
    intros st i st' OK I C E.
    pose proof (exec_fn_addr S WF st i st' OK I E) as FA.
    destruct (closed_mono st st') as [HOLD MOLD]; auto.
    { intros k a KO F. eapply exec_fn_addr_old; eauto. }
    (* an instruction with a key overwrites the object of its key or allocates it *)
    assert (HEAP : forall k0, instr_key i = Some k0 -> Heap st').
    { intros k0 IK c o N. pose proof (exec_funcs st i st' E) as FU. rewrite IK in FU.
      pose proof (instr_key_ok _ _ _ OK IK) as KO. specialize (FA k0 KO).
      rewrite (proj2 (key_is_true _ _) IK) in FA.
      destruct (fn_addr st k0) as [a|] eqn:F0.
      - destruct FU as [LT FU]. rewrite FU in N. destruct (Nat.eq_dec a c) as [->|NE].
        + left. exists k0. auto.
        + rewrite nth_upd_other in N by auto. eauto.
      - rewrite FU in N. apply nth_app1_cases in N. destruct N as [N|[-> ->]]; [eauto|].
        left. exists k0. auto. }
    destruct i; simpl in OK.
    - apply exec_GlobalStruct in E. destruct E as [[G ->]|(ta0 & ty0 & G & N0 & ->)]; (split; [exact HOLD|]);
        intros ta ty m f N L; simpl in N.
      + apply nth_app1_cases in N. destruct N as [N|[_ ->]]; [eauto | discriminate].
      + destruct (Nat.eq_dec ta0 ta) as [->|].
        * rewrite nth_upd_same in N by (eapply nth_lt; eauto). inv N. eauto.
        * rewrite nth_upd_other in N by auto. eauto.
    - split; [now apply (HEAP (KMeth t m))|].
      apply exec_SetMethod in E. destruct E as (ta0 & ty0 & G & N0 & [(a & L0 & LT & ->)|(FN & ->)]); [exact MOLD|].
      specialize (FA (KMeth t m) OK). rewrite (proj2 (key_is_true _ _)), FN in FA by reflexivity.
      intros ta ty m' f N L. simpl in N. destruct (Nat.eq_dec ta0 ta) as [->|].
      + rewrite nth_upd_same in N by (eapply nth_lt; eauto). inv N. simpl in L.
        destruct (Z.eq_dec m' m) as [->|].
        * rewrite lookup_upsert_same in L. inv L. eauto.
        * rewrite lookup_upsert_other in L by auto. eauto.
      + rewrite nth_upd_other in N by auto. eauto.
    - split; [now apply (HEAP (KFunc n))|].
      apply exec_GlobalFunc in E. destruct E as [[G ->]|(a & G & LT & ->)]; exact MOLD.
    - apply exec_GlobalZero in E. destruct E as [[_ ->]|[_ ->]]; auto. eapply hframe_closed; eauto using var_hframe.
    - apply exec_GlobalSet in E. destruct E as (st1 & v & EE & _ & ->).
      eapply hframe_closed; [|eapply hframe_closed; [eapply eval_expr_rel; eauto using hframe_alloc | exact C]].
      now apply var_hframe.
  Qed.

  Lemma exec_list_closed : forall is st st', Forall (instr_ok S) is -> Inv S st -> Closed st ->
    exec_list st is = Some st' -> Closed st'.
  Proof.
    induction is as [|i is IH]; simpl; intros st st' OK I C E. now inv E.
    inv OK. destruct (exec_instr st i) as [st1|] eqn:E1; try discriminate.
    eapply IH; [eauto | eapply exec_inv; eauto | eapply exec_closed; eauto | exact E].
  Qed.

  Variable beta : nat -> bodies.

  Lemma step_closed : forall st o st' ob, hop_ok S o -> Inv S st -> Closed st ->
    step (prog S beta) st o = Some (st', ob) -> Closed st'.
  Proof.
    intros st o st' ob OK I C E.
    destruct o as [v|l e|p|p q]; try (eapply hframe_closed; [eapply step_hframe; eauto; congruence | exact C]).
    simpl in E. destruct (exec_list st (prog S beta v)) as [st1|] eqn:EL; inv E.
    exact (exec_list_closed _ _ _ (proj1 (version_ok S (beta v))) I C EL).
  Qed.

  Lemma run_closed : forall h st st' o, hist_ok S h -> Inv S st -> Closed st ->
    run (prog S beta) st h = Some (st', o) -> Closed st'.
  Proof.
    induction h as [|op r IH]; simpl; intros st st' o OK I C E. now inv E.
    inv OK. destruct (step (prog S beta) st op) as [[st1 ob]|] eqn:ES; try discriminate.
    destruct (run (prog S beta) st1 r) as [[st2 obs]|] eqn:ER; inv E.
    destruct (step_good S WF beta _ _ _ _ H1 I ES) as (I1 & _).
    exact (IH _ _ _ H2 I1 (step_closed _ _ _ _ H1 I C ES) ER).
  Qed.

  (* every successful call of any function value in a reachable state runs the body that the version
     loaded last gives some declared function or method *)
  Theorem any_call : forall h st o v, hist_ok S h -> run (prog S beta) init_state h = Some (st, o) ->
    last_load h = Some v ->
    forall c ob, call_obs st (VFunc c) = Some ob ->
      exists k recv, key_ok S k /\ ob = OCall (body_of (beta v) k) recv /\
        ((recv = None /\ fn_addr st k = Some c) \/
         (exists r a, recv = Some r /\ nth_error (funcs st) c = Some (FBound r a) /\ fn_addr st k = Some a)).
  Proof.
    intros h st o v OK R LL c ob CO.
    pose proof (run_closed _ _ _ _ OK (inv_init S) Closed_init R) as [H _].
    pose proof (latest S WF beta _ _ _ _ OK R LL) as LA.
    simpl in CO. destruct (nth_error (funcs st) c) as [o0|] eqn:N; try discriminate.
    destruct (H c o0 N) as [(k & KO & F)|(r & f & -> & (k & KO & F))].
    - rewrite (LA k c KO F) in N. inv N. inv CO. exists k, None. split; auto.
    - rewrite (LA k f KO F) in CO. inv CO. exists k, (Some r). split; auto. split; auto. right. eauto.
  Qed.
End Closed.
