(* C18 -- incremental evaluation equals whole-program evaluation.
   Feeding a program to one VM a top-level statement (or chunk of statements) at a time through
   successive Eval calls against evaluating the whole program in a single call.

   Model/Incr.v: top-level statements as interaction trees over the compiler's interface to the
   shared Globals lookup / values, the Imports map and the top-level slots; Eval = compile + run
   (Model/VM.v [exec]).  Ties to the code: c18-corr (compiled code of the single call = chunk codes
   assembled, chunk codes satisfy closedb / slots_okb) and the metamorphic check c18-script. *)
From Coq Require Import ZArith List String Ascii Bool.
From GV Require Import GoSpec.GoPrim Gen.ValueOps_gen Model.Lookup Model.VM Model.Incr
                       Proofs.C18_step Proofs.C18_seq Proofs.C18_slots Proofs.C18_run Proofs.C18_compile Proofs.C18_witness.
Import ListNotations.
Open Scope Z_scope.

(* one compile of p1 ++ p2 = the compile of p1 followed by the compile of p2 from the state it left:
   same Globals interning (keys get the same indices: they are interned in the same order), same
   compile-time writes, same imports, and the code of p1 followed by the code of p2 (the latter with
   its top-level slots numbered after those of p1) *)
Theorem c18_compile : forall p1 p2 b g,
  compile_top (p1 ++ p2) b g =
  match compile_top p1 b g with
  | (None, g1) => (None, g1)
  | (Some (c1, b1), g1) =>
      match compile_top p2 b1 g1 with
      | (None, g2) => (None, g2)
      | (Some (c2, b2), g2) => (Some ((c1 ++ c2)%list, b2), g2)
      end
  end.
Proof. exact compile_top_app. Qed.

(* every cutting cs of the program List.concat cs: compiling the chunks one Eval after the other
   (fresh Locals each time: slot base 0) leaves Globals / Imports exactly as the single compile does,
   and the single compile's code is the chunks' codes assembled: chunk k's code with its top-level
   slots renumbered by the slots of the chunks before it ([shift_code]); a compile error in a chunk
   is a compile error of the whole, with the same state left behind *)
Theorem c18_compile_chunks : forall cs, Forall (Forall wf_stmt) cs -> forall b g,
  compile_top (List.concat cs) b g =
  match compile_chunks cs g with
  | (None, g') => (None, g')
  | (Some chs, g') => (Some (assemble b chs, b + total_slots chs), g')
  end.
Proof. exact compile_chunks_concat. Qed.

(* the compile-time reads: the compiler sees the global values only through view_type / view_int at
   the indices it reads; if two states (before / after the run of an earlier chunk) agree there, the
   later chunks compile to the same code, intern the same keys and leave states that still agree *)
Theorem c18_compiletime_reads : forall S cs g g', csim S g g' -> Forall S (chunks_reads cs g) ->
  fst (compile_chunks cs g') = fst (compile_chunks cs g) /\
  csim S (snd (compile_chunks cs g)) (snd (compile_chunks cs g')).
Proof. exact compile_chunks_agree. Qed.

Section C18.
  (* Go's append growth policy and the objects outside the modelled fragment: arbitrary *)
  Variable grow : Z -> Z -> Z.
  Variable ext_get : st -> value -> value -> option (res value).
  Variable ext_set : st -> value -> value -> value -> option (res st).
  Variable ext_len : st -> value -> option Z.
  Variable ext_getattr : st -> value -> Z -> option (res (value * st)).
  Variable ext_setattr : st -> value -> Z -> value -> option (res st).
  Notation exec := (VM.exec grow ext_get ext_set ext_len ext_getattr ext_setattr).
  Notation run := (VM.run grow ext_get ext_set ext_len ext_getattr ext_setattr).
  Notation run_seq := (Incr.run_seq grow ext_get ext_set ext_len ext_getattr ext_setattr).
  Notation incr_hyps := (Incr.incr_hyps grow ext_get ext_set ext_len ext_getattr ext_setattr).
  Notation eval1 := (Incr.eval1 grow ext_get ext_set ext_len ext_getattr ext_setattr true).
  Notation eval_seq := (Incr.eval_seq grow ext_get ext_set ext_len ext_getattr ext_setattr true).

  (* more fuel never changes an answer *)
  Theorem c18_exec_fuel : forall f f' codes pc sl ops s r,
    exec f codes pc sl ops s = r -> r <> RFuel -> (f <= f')%nat -> exec f' codes pc sl ops s = r.
  Proof. exact (exec_mono grow ext_get ext_set ext_len ext_getattr ext_setattr). Qed.

  (* sequential composition: for CLOSED blocks c1, c2 (closedb: every jump of a top-level instruction
     lands on a top-level instruction of the block or exactly at its end, no top-level RETURN, function
     bodies complete) running c1 ++ c2 is running c1, then c2 from the slots / operands / state c1 left;
     a failure of c1 is the failure of c1 ++ c2 *)
  Theorem c18_exec_seq : forall c1 c2, closedb c1 = true -> closedb c2 = true ->
    forall f1 sl ops s,
    match exec f1 c1 0 sl ops s with
    | RFuel => True
    | RDone sl1 ops1 s1 =>
        forall f2 r, exec f2 c2 0 sl1 ops1 s1 = r -> r <> RFuel ->
        exists f', exec f' (c1 ++ c2) 0 sl ops s = r
    | r => exec f1 (c1 ++ c2) 0 sl ops s = r
    end.
  Proof. exact (exec_seq grow ext_get ext_set ext_len ext_getattr ext_setattr). Qed.

  (* renumbering the top-level slots keeps a block closed *)
  Theorem c18_closed_shift : forall b c, closedb (shift_code b O c) = closedb c.
  Proof. exact closedb_shift. Qed.

  (* the top-level slots: a closed block whose slot operands lie in [0, n) (slots_okb), run on its own n
     slots, against the renumbered block run on a shared slot array pre ++ sl ++ post (fewer than
     slot_limit = 2^15 slots: joinParams packs slot numbers into 16 bits): same answer, the block's slots
     end up the same, the other slots are untouched *)
  Theorem c18_exec_shift : forall c n, closedb c = true -> slots_okb c n = true ->
    forall pre post, zlen pre + n < slot_limit ->
    forall f pc sl ops s, top_or_end c pc = true -> zlen sl = n ->
      exec f (shift_code (zlen pre) O c) pc (pre ++ sl ++ post)%list ops s =
        map_slots (fun x => (pre ++ x ++ post)%list) (exec f c pc sl ops s) /\
      (forall sl' ops' s', exec f c pc sl ops s = RDone sl' ops' s' -> zlen sl' = n).
  Proof. exact (exec_shift grow ext_get ext_set ext_len ext_getattr ext_setattr). Qed.

  (* the runs of the chunks one after the other -- each on fresh nil slots and an empty operand stack,
     as successive Evals do, stopping at the first chunk that fails -- against ONE run of the assembled
     code on one slot array: same operands left, same globals / heap / output; or the same failure.
     chunk_okb = closedb && slots_okb: decidable, checked on real chunk code by c18-corr *)
  Theorem c18_run : forall cs fuel s r,
    Forall (fun ch => chunk_okb ch = true) cs -> total_slots cs < slot_limit ->
    run_seq fuel cs s = r -> observable r ->
    exists fuel', same_outcome r (run fuel' (assemble 0 cs) (total_slots cs) s).
  Proof. exact (run_chunks grow ext_get ext_set ext_len ext_getattr ext_setattr). Qed.

  (* for every cutting cs of the program List.concat cs on which every chunk evaluates (incr_hyps: the
     named hypotheses chunk_okb, no_leftover, globals_len, reads_stable, writes_invisible along the
     session): the single Eval succeeds, ends in the same machine state as the session of successive
     Evals (same interning table, imports, globals, heap, output) and returns what the last chunk's
     Eval returns *)
  Theorem c18_eval : forall cs fuel m,
    Forall (Forall wf_stmt) cs -> cs <> [] -> incr_hyps fuel m cs ->
    (forall chs g, compile_chunks cs (cstate_of m) = (Some chs, g) -> total_slots chs < slot_limit) ->
    exists fuel' rets,
      eval1 fuel' m (List.concat cs) = (EOk rets, snd (eval_seq fuel m cs)) /\
      last (fst (eval_seq fuel m cs)) ECompileErr = EOk rets /\
      Forall is_ok (fst (eval_seq fuel m cs)).
  Proof. exact (eval_incremental_whole grow ext_get ext_set ext_len ext_getattr ext_setattr). Qed.

  (* when a chunk fails while running (after the chunks before it ran): the single call fails with the
     same error in the same state, and does NOT run the remaining chunks -- the session of successive
     Evals does (eval_seq goes on: see c18_session_goes_on) *)
  Theorem c18_eval_fail : forall cs fuel m chs gN msg pos s',
    Forall (Forall wf_stmt) cs -> compile_chunks cs (cstate_of m) = (Some chs, gN) ->
    Forall (fun ch => chunk_okb ch = true) chs -> total_slots chs < slot_limit ->
    run_seq fuel chs (set_globals (m_vm m) (c_vals gN)) = RFail msg pos s' ->
    exists fuel', eval1 fuel' m (List.concat cs) = (ERunErr msg pos, mkM (c_lk gN) (c_imps gN) s').
  Proof. exact (eval_whole_stops grow ext_get ext_set ext_len ext_getattr ext_setattr). Qed.

  (* when a chunk does not compile, the single call runs NOTHING (the chunks before it included);
     what the compiler interned / wrote before the error stays *)
  Theorem c18_eval_compile_error : forall cs fuel m g',
    Forall (Forall wf_stmt) cs -> compile_chunks cs (cstate_of m) = (None, g') ->
    eval1 fuel m (List.concat cs) = (ECompileErr, mkM (c_lk g') (c_imps g') (set_globals (m_vm m) (c_vals g'))).
  Proof. exact (eval_whole_compile_error grow ext_get ext_set ext_len ext_getattr ext_setattr). Qed.
End C18.
Print Assumptions c18_compile.
Print Assumptions c18_compile_chunks.
Print Assumptions c18_compiletime_reads.
Print Assumptions c18_exec_fuel.
Print Assumptions c18_exec_seq.
Print Assumptions c18_closed_shift.
Print Assumptions c18_exec_shift.
Print Assumptions c18_run.
Print Assumptions c18_eval.
Print Assumptions c18_eval_fail.
Print Assumptions c18_eval_compile_error.

Open Scope string_scope.
(* non-vacuity: type T int32; x := 7; y := T(2): the modes agree (the conversion is chosen from a
   value written at COMPILE time of the earlier statement) *)
Example c18_witness_agree :
  let p := [s_type_basic "T" 23; s_define_int "x" 7; s_define_call "y" "T" 2] in
  w_whole p = ([EOk []], [vType 23; vInt32 7; vInt32 2], ["main.T"; "main.x"; "main.y"]) /\
  w_incr [[s_type_basic "T" 23]; [s_define_int "x" 7]; [s_define_call "y" "T" 2]] =
    ([EOk []; EOk []; EOk []], [vType 23; vInt32 7; vInt32 2], ["main.T"; "main.x"; "main.y"]).
Proof. vm_compute. split; reflexivity. Qed.

(* FINDING (reads_stable is necessary): a name bound to a type value by RUN-time code.
   type T int32; U := T; y := U(3) -- the single call compiles U(3) as a call (U is nil at compile
   time) and fails at run time; cut before the last statement, U already holds the type value when
   U(3) is compiled: a conversion, y = 3 *)
Example c18_reads_diverge :
  let t1 := s_type_basic "T" 23 in let t2 := s_define_name "U" "T" in let t3 := s_define_call "y" "U" 3 in
  fst (fst (w_whole [t1; t2; t3])) = [ERunErr "interface conversion" 0] /\
  w_incr [[t1; t2]; [t3]] = ([EOk []; EOk []], [vType 23; vType 23; vInt32 3], ["main.T"; "main.U"; "main.y"]).
Proof. vm_compute. split; reflexivity. Qed.

(* FINDING (writes_invisible is necessary): a type declared by a LATER statement is written at compile
   time, i.e. before an earlier statement of the same call runs.   x := T; type T int32 *)
Example c18_writes_diverge :
  let u1 := s_define_name "x" "T" in let t1 := s_type_basic "T" 23 in
  w_whole [u1; t1] = ([EOk []], [vType 23; vType 23], ["main.T"; "main.x"]) /\
  w_incr [[u1]; [t1]] = ([EOk []; EOk []], [vType 23; mkValue 0 (Zn 0) PNone], ["main.T"; "main.x"]).
Proof. vm_compute. split; reflexivity. Qed.

(* the session goes on after a failing chunk, the single call does not:  y := nofn(1); x := 5 *)
Example c18_session_goes_on :
  let a := s_define_call "y" "nofn" 1 in let b := s_define_int "x" 5 in
  w_whole [a; b] = ([ERunErr "interface conversion" 0], [mkValue 0 (Zn 0) PNone; mkValue 0 (Zn 0) PNone; mkValue 0 (Zn 0) PNone],
                    ["main.nofn"; "main.y"; "main.x"]) /\
  w_incr [[a]; [b]] = ([ERunErr "interface conversion" 0; EOk []],
                       [mkValue 0 (Zn 0) PNone; mkValue 0 (Zn 0) PNone; vInt32 5], ["main.nofn"; "main.y"; "main.x"]).
Proof. vm_compute. split; reflexivity. Qed.

(* the Imports map must be the host's shared map (cli.go): with a fresh map per call an import does
   not survive its Eval, and `strings.X` in the next chunk is an attribute of an unknown global *)
Example c18_imports_shared :
  let a := s_import "strings" in let b := s_define_member "x" "strings" "Repeat" in
  let m := mkM (fst (index new_lookup "strings.Repeat")) [] (mkSt [vInt32 9] [] [] []) in
  fst (Incr.eval_seq w_grow w_get w_set w_len w_ga w_sa true 100 m [[a]; [b]]) = [EOk []; EOk []] /\
  fst (w_eval1 true 100 m [a; b]) = EOk [] /\
  exists r, fst (Incr.eval_seq w_grow w_get w_set w_len w_ga w_sa false 100 m [[a]; [b]]) = [EOk []; EAbort r].
Proof. vm_compute. repeat split; eexists; reflexivity. Qed.

(* non-vacuity of c18_eval: its hypotheses hold along the session of the first witness, one statement per Eval *)
Example c18_hyps_witness :
  Incr.incr_hyps w_grow w_get w_set w_len w_ga w_sa 50 w_m0
    [[s_type_basic "T" 23]; [s_define_int "x" 7]; [s_define_call "y" "T" 2]] /\
  (forall chs g, compile_chunks [[s_type_basic "T" 23]; [s_define_int "x" 7]; [s_define_call "y" "T" 2]] (cstate_of w_m0) = (Some chs, g) ->
                 total_slots chs < slot_limit).
Proof. exact hyps_witness. Qed.
