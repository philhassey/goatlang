(* C03 -- no input can take the embedding host down.
   (a) containment: Model/Host.v models Eval / Load / Call / Func with the glue and every recover handler
       exact (including loadImports' deferred recover, the nil-fs guard of rawLoadPackage, the nil-safe
       token.String and newPos' clamp16) and the stage bodies chosen by an adversary; no panic escapes under
       the invariants of the stage bodies collected in entry_hyps, none of which concerns the source text's
       imports, the file system, nil operands or the size of line numbers.
   (b) termination of the front end: the theorems that exist in other packages collected, plus the Pratt
       loop for arbitrary token lists, the loader worklist, the peephole budget and the cursor discipline of
       the parser loops.
   (c) recursion depth: the Go stack depth of the expression parser is bounded by the number of tokens and
       a nest of n parentheses really needs n frames. *)
From Coq Require Import ZArith List String Bool Lia PeanoNat.
From GV Require Import GoSpec.GoPrec Model.Pratt Model.PrattInst Model.Loader Model.Lookup Model.IntMap
  Model.PeepTypes Model.VM Model.Peephole Model.Host Model.Cursor Gen.Tables_gen
  Proofs.C02_fixpoint Proofs.C08_lookup Proofs.C12_intmap Proofs.C03_host Proofs.C03_term Proofs.C03_cursor.
Import ListNotations.
Open Scope string_scope.

(* for every entry point, every combination of options, every source (whatever it imports, whatever operands
   it leaves out, however many lines it has), every file system (nil or not) and every behaviour of the stage
   bodies that respects entry_hyps: no panic escapes.  entry_hyps is
     Eval:  the text/scanner loop does not panic; the positions stamped on the code that runs / is dumped
            carry indices lookup.Index returned, no key of the globals is empty, and the operands
            instruction.String hands to lookup.Key are valid (only when WithCodeDump is on)
     Load:  the same (reading the argument package needs no hypothesis: from /repo commit 8db5477 on
            loadPackage / loadFile run under recoverLoad, a panic there is "error in load: ...")
     Call / Func: the positions of the code that was running when a panic was raised are stamped as above *)
Theorem c03_contain : forall (unq : string -> bool) (e : entry),
  entry_hyps e -> forall w, entry_model unq e <> Escape w.
Proof. intros unq e H w E. pose proof (entry_outcome unq e) as S. rewrite E in S. exact (S H). Qed.
Print Assumptions c03_contain.

(* the loader on its own needs NO hypothesis: an import path strconv.Unquote rejects, a nil node, a nil
   fs.FS, a panic while reading an imported package -- loadImports returns *)
Theorem c03_loader_contained : forall unq sys_is_nil topPkg top fb w,
  load_imports_model unq sys_is_nil topPkg top fb <> SEscape w.
Proof. intros unq n tp top fb w E. pose proof (load_imports_spec unq n tp top fb) as S. rewrite E in S. exact S. Qed.
Print Assumptions c03_loader_contained.

(* every error Eval returns starts with one of the stage prefixes *)
Theorem c03_prefix : forall unq sys_is_nil o a p,
  eval_model unq sys_is_nil o a = Err p -> exists st, In (p, st) eval_prefixes.
Proof. intros unq n o a p E. pose proof (entry_outcome unq (EEval n o a)) as S. cbn [entry_model] in S. rewrite E in S. exact S. Qed.
Print Assumptions c03_prefix.

(* and so does every error Load returns (values left on the stack are "error in run: unexpected returns") *)
Theorem c03_prefix_load : forall unq sys_is_nil pkg o a p,
  load_model unq sys_is_nil pkg o a = Err p -> exists st, In (p, st) load_prefixes.
Proof. intros unq n pk o a p E. pose proof (entry_outcome unq (ELoad n pk o a)) as S. cbn [entry_model] in S. rewrite E in S. exact S. Qed.
Print Assumptions c03_prefix_load.

(* an entry point that does not return: EITHER the run stage of THIS entry was handed a behaviour that does
   not return (the script itself; for Eval also the script of an imported package), OR loadImports -- applied
   to the tokens, the tree, the nil-fs flag and the file system of THIS entry -- ran out of its discovery budget.
   That the stage is SRun or SLoad holds by the types of the adversary alone (scanner, parser and compiler
   behaviours have no "does not return" constructor: a modelling decision, see c03_terminates_* for what is
   proved about those stages); the content of the theorem is the link to the entry's own components.
   Call and Func never hang in the loader. *)
Theorem c03_hang : forall unq e s, entry_model unq e = Hang s ->
  (s = SRun /\ match e with
               | EEval _ _ a => ea_rimp a = RHang \/ ea_run a = RHang
               | ELoad _ _ _ a => la_run a = RHang
               | ECall _ b | EFunc _ b => b = FnHang
               end) \/
  (s = SLoad /\ match e with
     | EEval n _ a => exists toks tree, tokenize_model (ea_scan a) = SOk toks /\ parse_model toks (ea_parse a) = SOk tree /\
                        load_imports_model unq n "" tree (ea_files a) = SHang
     | ELoad n p _ a => exists nodes, la_top a = TopRet nodes /\
                        load_imports_model unq n p (TNode "_" "_" nodes) (la_files a) = SHang
     | _ => False
     end).
Proof. intros unq e s E. pose proof (entry_outcome unq e) as S. rewrite E in S. exact S. Qed.
Print Assumptions c03_hang.

(* ... and loadImports does not return only when the file system is not nil, the top package imports
   something, the file behaviour is FRet and the worklist of Model/Loader.v exhausts the budget that FRet
   carries.  The budget is chosen by the adversary (Go's loop has no budget: the model's LoadFuel stands for
   "the discovery never ends"); this theorem does not say the budget is ever sufficient.  What is proved about
   sufficiency is c03_terminates_load below: on an import graph whose reachable part U is finite, any budget
   >= 2 + weight imports U is enough -- so with such a budget the premise here is false. *)
Theorem c03_hang_load : forall unq nilfs topPkg top fb, load_imports_model unq nilfs topPkg top fb = SHang ->
  exists p ps imports nodes budget, nilfs = false /\ top_imports unq (kids_of top) = Some (p :: ps) /\
    fb = FRet imports nodes budget /\
    load (fun q => if String.eqb q topPkg then Some (p :: ps) else imports q) budget topPkg = LoadFuel.
Proof. intros unq n tp top fb E. pose proof (load_imports_spec unq n tp top fb) as S. rewrite E in S. exact S. Qed.
Print Assumptions c03_hang_load.

(* the token list handed to parse is never empty and ends with (eof): the first p.Next() succeeds, so
   p.Token is non-nil whenever parse's recover handler runs *)
Theorem c03_inv_tokens : forall sb l, tokenize_model sb = SOk l ->
  l <> [] /\ last l eof = eof /\ forall pb w, parse_model l pb <> SEscape w.
Proof.
  intros sb l E. pose proof (tokenize_spec sb) as S. rewrite E in S. destruct S as [H1 H2]. repeat split; auto.
  intros pb w Ep. pose proof (parse_spec l pb H1) as S. rewrite Ep in S. exact S.
Qed.
Print Assumptions c03_inv_tokens.

(* newPos / pos.info for ARBITRARY file index, function index, line and column: each field is clamped to 16
   bits and read back unchanged; nothing spills into the neighbouring field *)
Theorem c03_inv_pos_roundtrip : forall fi fu line col : Z,
  pos_file (new_pos fi fu line col) = clamp16 fi /\ pos_func (new_pos fi fu line col) = clamp16 fu /\
  ((0 <= fi < 65536)%Z -> clamp16 fi = fi) /\ ((0 <= fu < 65536)%Z -> clamp16 fu = fu).
Proof. intros. split; [apply new_pos_file|]. split; [apply new_pos_func|]. rewrite !clamp16_spec. lia. Qed.
Print Assumptions c03_inv_pos_roundtrip.

(* so a stamped position always prints: the clamped indices are inside the key table *)
Theorem c03_inv_pos_string : forall keys p, keys_ok keys -> stamped keys p -> pos_string_ok keys p = true.
Proof. exact stamped_ok. Qed.
Print Assumptions c03_inv_pos_string.

(* btErr (the handler of VM.run and VM.Func) is total: for ANY frame.N (negative, inside, at or beyond the end
   of the code) and ANY line / column numbers -- PROVIDED the VM state satisfies vmstate_ok (Model/Host.v):
   the key table is keys_ok, every position stamped on the code is `stamped` (carries indices lookup.Index
   returned, or is zero) and every backtrace entry is zero or a stamped position.  So not "any backtrace":
   any backtrace whose entries were pushed from stamped code. *)
Theorem c03_inv_bterr_total : forall s, vmstate_ok s -> bt_err_ok (vkeys s) (vcodes s) (vN s) (vbt s) = true.
Proof. exact bt_err_total. Qed.
Print Assumptions c03_inv_bterr_total.

(* loadImports returns the top package at least: Eval's pkgs[:len(pkgs)-1] and pkgs[len(pkgs)-1:] are in range *)
Theorem c03_inv_pkgs_nonempty : forall imports budget top order, load imports budget top = LoadOk order -> order <> [].
Proof. exact load_nonempty. Qed.
Print Assumptions c03_inv_pkgs_nonempty.

(* treeDump's s[3:len(s)-1]: a package tree handed on by loadImports has at least one child (or is the
   synthetic (_ (package _ name))) and the text "_", so its rendering has at least 4 bytes -- nil operands
   included (they print "<nil>") *)
Theorem c03_inv_tree_dump : forall pkg t, raw_tree_ok t -> dump_one_ok (fix_empty pkg t) = true.
Proof. exact fix_empty_ok. Qed.
Print Assumptions c03_inv_tree_dump.

(* Func's vm.stack[len(vm.stack)-xRets:] lies inside the deferred recover: Func and Call never let a panic
   escape, whatever result count is requested (0, 5, negative) *)
Theorem c03_inv_func : forall x b, func_beh_ok b -> forall w, func_model x b <> Escape w.
Proof. intros x b H w E. pose proof (func_spec x b) as S. rewrite E in S. exact (S H). Qed.
Print Assumptions c03_inv_func.

(* inputs on which containment holds from /repo commits bc98689 371cd14 47eb9a0 29c9c35 6607b34 8db5477 on *)

Definition quiet_adv (stmts : list tree) : eval_adv :=
  mkEvalAdv (ScanOk []) (PRet stmts) (FRet (fun _ => None) (fun _ => []) 100)
            (CRet ["nil"] []) RRet (CRet ["nil"] []) RRet.
Definition unq_go (s : string) : bool := negb (String.eqb s """\400""").

(* import (x "\400") : the panic of Unquote is recovered inside loadImports *)
Example c03_fixed_unquote :
  eval_model unq_go false (mkOpt false false false)
    (quiet_adv [TNode "import" "import" [TNode "(name)" "x" []; TNode "(string)" """\400""" []]])
  = Err "error in loadImports: ".
Proof. vm_compute. reflexivity. Qed.

(* Eval(nil, ...) with an import: the package counts as missing, the evaluation goes on *)
Example c03_fixed_nil_fs :
  eval_model unq_go true (mkOpt true true false)
    (quiet_adv [TNode "import" "import" [TNode "(name)" "fmt" []; TNode "(string)" """fmt""" []]])
  = Ok.
Proof. vm_compute. reflexivity. Qed.

(* x /;  with WithTreeDump: the missing operand prints <nil> *)
Example c03_fixed_nil_child :
  eval_model unq_go false (mkOpt true false false) (quiet_adv [TNode "/" "/" [TNode "(name)" "x" []; TNil]]) = Ok /\
  tstr (TNode "" "_" [TNode "/" "/" [TNode "(name)" "x" []; TNil]]) = "(_ (/ x <nil>))".
Proof. vm_compute. split; reflexivity. Qed.

(* a statement on line 65537, or 10^9, column 10^6, with more than 65536 globals: every field stays in place *)
Example c03_fixed_pos_clamp :
  let keys := (List.repeat "k" 65 ++ ["#eval"; "#"])%list in
  let p := new_pos 65 66 65537 1 in
  let q := new_pos 65 66 1000000000 1000000 in
  pos_func p = 66%Z /\ pos_file q = 65%Z /\ pos_func q = 66%Z /\ pos_string_ok keys p = true /\
  run_model (RPanic (mkVmstate keys [p; q] 1 [q])) = SErr /\
  code_dump_ok true keys [mkDins p []; mkDins q []] = true /\
  pos_file (new_pos 70000 66 1 1) = 65535%Z.
Proof. vm_compute. repeat split; reflexivity. Qed.

(* Load of a package whose file says `*package`: rawLoadPackage's first.Tokens[0] panics, recoverLoad returns it *)
Example c03_fixed_package_clause :
  forall o files comp run rets, load_model unq_go false "pkg" o (mkLoadAdv TopPanic files comp run rets) = Err "error in load: ".
Proof. reflexivity. Qed.

(* Load of a package whose top-level code leaves a value: a run error *)
Example c03_load_prefixed :
  load_model unq_go false "main" (mkOpt false false false)
    (mkLoadAdv (TopRet [TNode "(int)" "42" []]) FErr (CRet ["nil"] []) RRet 1)
  = Err "error in run: ".
Proof. vm_compute. reflexivity. Qed.

(* the Pratt expression loop: for ANY token list, ANY binding-power table and ANY right binding power, the
   budget |tokens|+1 is not exhausted (C05 proves completeness, i.e. this for the accepted inputs only) *)
Theorem c03_terminates_pratt : forall lbp infix neg_rbp compl_rbp not_rbp paren_rbp fuel rbp ts,
  (List.length ts < fuel)%nat ->
  Pratt.expr lbp infix neg_rbp compl_rbp not_rbp paren_rbp fuel rbp ts <> inr PErrFuel.
Proof. exact pratt_terminates. Qed.
Print Assumptions c03_terminates_pratt.

Theorem c03_terminates_parse_expr : forall ts, goat_parse ts <> inr PErrFuel.
Proof. intros ts. unfold goat_parse, parse. apply pratt_terminates. lia. Qed.
Print Assumptions c03_terminates_parse_expr.

(* every successful (sub)expression consumes a token: the statement loops that call Expression make progress *)
Theorem c03_expr_consumes : forall lbp infix neg_rbp compl_rbp not_rbp paren_rbp fuel rbp ts t rest,
  Pratt.expr lbp infix neg_rbp compl_rbp not_rbp paren_rbp fuel rbp ts = inl (t, rest) ->
  (List.length rest < List.length ts)%nat.
Proof. exact expr_consumes. Qed.
Print Assumptions c03_expr_consumes.

(* the loader's discovery worklist: for every list U that contains the top package and is closed under
   imports (the packages reachable from it: finitely many on any file tree), 2 + the number of import entries
   of U iterations suffice.  Stated on Model/Loader.v alone, with the closure of U as the only premise; the proof
   is C15's fuel argument (C15_loader.discover_spec), whose premise -- a list covering what is reachable from the
   top package -- follows from the closure.  The theorem is conditional on the budget: it does not say Go's
   (budget-less) loop is run with one, only that the loop's length is bounded by that number on such a graph. *)
Theorem c03_terminates_load : forall (imports : string -> option (list string)) (U : list string),
  (forall q l x, In q U -> imports q = Some l -> In x l -> In x U) ->
  forall top fuel, In top U -> (S (S (weight imports U)) <= fuel)%nat -> load imports fuel top <> LoadFuel.
Proof. exact load_no_fuel. Qed.
Print Assumptions c03_terminates_load.

(* the compiler's scope table: the recursive renamers shadow / unshadow (C08) *)
Theorem c03_terminates_lookup : forall m k f, (chain_fuel m <= f)%nat ->
  shadow f m k = shadow (chain_fuel m) m k /\ unshadow f m k = unshadow (chain_fuel m) m k.
Proof. exact (fun m k f H => conj (shadow_budget_any m k f H) (unshadow_budget_any m k f H)). Qed.
Print Assumptions c03_terminates_lookup.

(* the peephole pass: one more unit of fuel than instructions suffices, any larger budget gives the same code *)
Theorem c03_terminates_peephole : forall fuel code, (S (List.length code) <= fuel)%nat ->
  do_optimize_fuel fuel peephole_rules code = do_optimize peephole_rules code.
Proof. intros fuel code H. apply c02_fuel_independent. lia. Qed.
Print Assumptions c03_terminates_peephole.

(* the statement-level parser loops on the token cursor: see Model/Cursor.v for the transcription and for the
   list of loops covered.  Every run of the cursor skeleton of parse.go / symbol.go that starts inside the
   token list terminates (Exec is an inductive relation: a derivation is a finite run), whatever the
   data-dependent branches do (the oracle), and when it returns normally the cursor has advanced by at least
   one token and is still inside the token list.  (A run may also end in OPanic -- e.g. p.Next() past the end --
   which Go's parse recovers; "terminates" includes that outcome.) *)
Theorem c03_parse_progress_partial : forall (n : Z) (oracle : nat -> bool) (c : Z) (k : nat),
  (0 <= c <= n)%Z -> exists out k', Exec goat_table n oracle (Call F_parse) c k out k' /\
    (forall c', out = ONorm c' -> (c + 1 <= c' <= n)%Z).
Proof.
  intros n oracle c k Hc. apply (table_terminates goat_table goat_rank goat_gain goat_nf goat_table_ok n oracle F_parse c k).
  - unfold F_parse, goat_nf. lia.
  - lia.
Qed.
Print Assumptions c03_parse_progress_partial.

(* the same for any table of parser functions that passes the (decidable) progress check *)
Theorem c03_parse_progress_general : forall (tbl : nat -> prog) (rank : nat -> nat) (gain : nat -> Z) (nf : nat),
  table_ok tbl rank gain nf = true ->
  forall (n : Z) (oracle : nat -> bool) f c k, (f < nf)%nat -> (c <= n)%Z ->
  exists out k', Exec tbl n oracle (Call f) c k out k' /\
    (forall c', out = ONorm c' -> (c + gain f <= c' <= n)%Z).
Proof. exact table_terminates. Qed.
Print Assumptions c03_parse_progress_general.

Theorem c03_goat_table_ok : table_ok goat_table goat_rank goat_gain goat_nf = true.
Proof. exact goat_table_ok. Qed.
Print Assumptions c03_goat_table_ok.

(* with a separate budget d for NESTED calls of doExpression: |tokens|+1 frames always suffice ... *)
Theorem c03_depth_bound : forall lbp infix neg_rbp compl_rbp not_rbp paren_rbp fuel d rbp ts,
  (List.length ts < d)%nat ->
  exprD lbp infix neg_rbp compl_rbp not_rbp paren_rbp d fuel rbp ts =
  lift (Pratt.expr lbp infix neg_rbp compl_rbp not_rbp paren_rbp fuel rbp ts).
Proof. intros. apply (proj1 (depth_enough lbp infix neg_rbp compl_rbp not_rbp paren_rbp fuel)). assumption. Qed.
Print Assumptions c03_depth_bound.

(* ... and n nested parentheses need more than n frames: the depth grows linearly with the input *)
Definition nest (n : nat) : list GoPrec.tok := (List.repeat (TSym "(") n ++ TAtom true "1" :: List.repeat (TSym ")") n)%list.
Example c03_depth_witness :
  exprD lbp_of infix_of neg_bp compl_bp not_bp commaBP 40 200 0 (nest 40) = inr DDepth /\
  (exists t, exprD lbp_of infix_of neg_bp compl_bp not_bp commaBP 41 200 0 (nest 40) = inl (t, [])).
Proof. split; [vm_compute; reflexivity|eexists; vm_compute; reflexivity]. Qed.

(* the containment theorems apply: a well-behaved Eval with both dumps on returns Ok, a compile error is prefixed, and the
   hypotheses of c03_contain are satisfiable by exactly this behaviour *)
Example c03_witness :
  let stmts := [TNode "import" "import" [TNode "(name)" "fmt" []; TNode "(string)" """fmt""" []]; TNode "(int)" "1" []] in
  let keys := ["nil"; "true"; "false"; "#eval"; "#"] in
  let code := [mkDins (new_pos 3 4 1 1) [0%Z]] in
  let files := FRet (fun _ => None) (fun _ => []) 100 in
  eval_model unq_go false (mkOpt true true false)
    (mkEvalAdv (ScanOk []) (PRet stmts) files (CRet keys []) RRet (CRet keys code) RRet) = Ok /\
  eval_model unq_go false (mkOpt true true false)
    (mkEvalAdv (ScanOk []) (PRet stmts) files (CRet keys []) RRet (CPanic true) RRet) = Err "error in compile: ".
Proof. vm_compute. split; reflexivity. Qed.

(* the hypotheses of c03_contain are satisfiable: a run error on line 70000 with a two-entry backtrace, both dumps on *)
Example c03_hyps_satisfiable :
  let keys := ["nil"; "true"; "false"; "#eval"; "#"] in
  eval_hyps (mkOpt true true false)
    (mkEvalAdv (ScanOk []) (PRet []) FErr (CRet keys []) (RPanic (mkVmstate keys [new_pos 3 4 70000 1] 5 [0%Z; new_pos 3 4 2 2]))
               (CRet keys [mkDins (new_pos 3 4 1 1) [0%Z]]) RRet).
Proof.
  assert (Hk : keys_ok ["nil"; "true"; "false"; "#eval"; "#"]).
  { split; [discriminate|]. repeat constructor; discriminate. }
  assert (Hs : forall l c, stamped ["nil"; "true"; "false"; "#eval"; "#"] (new_pos 3 4 l c)).
  { intros l c. right. exists 3%Z, 4%Z, l, c. cbn. repeat split; lia. }
  split; cbn -[new_pos].
  - discriminate.
  - split; [exact Hk|]. split.
    + constructor; [apply Hs|constructor].
    + constructor; [left; reflexivity|]. constructor; [apply Hs|constructor].
  - intros _. split; [exact Hk|]. constructor; [|constructor]. split; [apply Hs|reflexivity].
  - constructor.
Qed.
