(* C09 -- calls deliver arguments and results in order and with their declared types.
   The proofs rest on Proofs/C09_call.v, C09_frame.v, C09_method.v.
   The theorems are about [call_fn] / [exec] of Model/VM.v, the transcription of vm.go (call,
   callReady, mkFunc) and do.go (exec), for EVERY oracle of the unmodelled objects, fuel,
   heap, argument list and stack contents below the arguments.  Operand stacks have their
   top at the head: a caller that pushed [args] (first argument first) above [lo] holds
   [rev args ++ lo].  Vocabulary (Proofs/C09_call.v):
     assign_zip vs ts      = v_i.assign(t_i) position by position;
     entry_slots a t n k   = assign_zip a t ++ (n - k) nil cells  (the callee's slots on entry);
     typed_results         = the top nrets values the body left, assigned the result types;
     finish ... lo r       = what callReady/mkFunc make of the body's outcome r:
                             fewer values than declared -> "missing return",
                             fewer than xRets -> "incorrect returns",
                             else the first xRets typed results on top of lo;
     wf_func k r types     = 0 <= k, 0 <= r, one type per parameter and per result. *)
From Coq Require Import ZArith String List Bool Floats Lia.
From GV Require Import GoSpec.GoPrim Gen.ValueOps_gen Gen.Tables_gen Model.VM
  Model.CorrVM Proofs.C04_ops Proofs.VM_step Proofs.C09_call Proofs.C09_frame.
From GV Require Model.Call Proofs.C19_adapter Proofs.C09_method.
Import ListNotations.
Open Scope Z_scope.

(* A call with the declared number of arguments -- CALL / FASTCALL of a non-variadic function,
   or CALLVARIADIC (= callReady) of any function -- runs the body on slots = the arguments
   assigned to the parameter types in order, then nil cells, and an EMPTY operand stack (the
   callee cannot see [lo]); its outcome is [finish]: results typed, first xRets of them on top
   of the untouched [lo].  Any other argument count: "incorrect args", body not run.  Fewer
   results than requested: "incorrect returns".  A success is never misaligned: exactly xRets
   values above [lo].  A body that leaves exactly the declared results has every one typed. *)
Theorem c09_call :
  forall grow ext_get ext_set ext_len ext_getattr ext_setattr
         fuel pack fa xRets pos args lo s nargs nrets variadic vtype nslots types body,
  hget s fa = Some (HFunc nargs nrets variadic vtype nslots types body) ->
  variadic && pack = false ->
  zlen args = nargs ->
  call_fn grow ext_get ext_set ext_len ext_getattr ext_setattr (S fuel) pack fa nargs xRets pos (rev args ++ lo)%list s =
    finish nargs nrets xRets pos types lo
      (exec grow ext_get ext_set ext_len ext_getattr ext_setattr fuel body 0
            (entry_slots args types nslots nargs) [] (push_bt s pos)) /\
  (forall xArgs ops, xArgs <> nargs ->
     call_fn grow ext_get ext_set ext_len ext_getattr ext_setattr (S fuel) pack fa xArgs xRets pos ops s =
       CErr (RFail "incorrect args" pos s)) /\
  (forall sl rops s2, nrets <= zlen rops -> zlen rops < xRets ->
     finish nargs nrets xRets pos types lo (RDone sl rops s2) = CErr (RFail "incorrect returns" pos (pop_bt s2))) /\
  (wf_func nargs nrets types -> 0 <= xRets -> forall ops' s',
     call_fn grow ext_get ext_set ext_len ext_getattr ext_setattr (S fuel) pack fa nargs xRets pos (rev args ++ lo)%list s = COk ops' s' ->
     exists res, ops' = (res ++ lo)%list /\ zlen res = xRets) /\
  (forall results, zlen results = nrets ->
     typed_results nargs nrets types results = assign_zip results (skipn (Z.to_nat nargs) types)).
Proof.
  intros * H HV HA. repeat apply conj.
  - eapply call_exact; eassumption.
  - intros. eapply call_wrong_args; eassumption.
  - apply finish_few.
  - intros W Hx ops' s' E. erewrite call_exact in E by eassumption. eapply finish_aligned; eassumption.
  - apply typed_results_exact.
Qed.

(* Typing of the parameters: slot i holds argument i assigned to declared type i, the other slots are
   nil; and (C04) assign turns an untyped constant into the declared numeric type, nil into the
   declared nillable tag, and leaves every typed value as it is.  The same [Value_assign] types
   the results (typed_results / assign_zip above). *)
Theorem c09_param_types :
  (forall args types nslots nargs i a t,
     nth_error args i = Some a -> nth_error types i = Some t ->
     nth_error (entry_slots args types nslots nargs) i = Some (Value_assign a t)) /\
  (forall args types nslots nargs i,
     zlen args = nargs -> nargs <= zlen types -> nargs <= i < nslots ->
     nth_error (entry_slots args types nslots nargs) (Z.to_nat i) = Some nilV) /\
  (forall a t,
     (forall ty c, a = Untyped c -> t = tag_of ty -> typed ty = true -> in_range ty c = true ->
        Value_assign a t = V ty c) /\
     (forall c, a = Untyped c -> t = TypeFloat64 -> Value_assign a t = F (float_of_Z c)) /\
     (a = nilV -> nillableMin <= t -> Value_assign a t = mkValue t (Zn 0) PNone) /\
     (vt a <> untypedInt -> vt a <> TypeNil -> Value_assign a t = a)).
Proof. exact (conj entry_slot (conj entry_slot_local assign_cases)). Qed.

(* Variadic functions.  CALL with at least one surplus argument: the surplus arguments become ONE new
   slice appended to the heap, element type the declared one, cells the surplus arguments assigned to it
   in order; the call then is the exact-count call with that slice as last argument.  CALL without surplus
   arguments: the last argument is the NIL slice of the declared variadic type (tag vtype, no object
   part: xs == nil holds in the callee) and the heap is untouched: the exact-count call runs on the very
   same state.  Fewer arguments than fixed parameters: an error.  CALLVARIADIC (pack = false): the spread
   slice value itself is the last parameter. *)
Theorem c09_variadic :
  forall grow ext_get ext_set ext_len ext_getattr ext_setattr
         fuel fa xRets pos s nargs nrets vtype nslots types body,
  hget s fa = Some (HFunc nargs nrets true vtype nslots types body) ->
  (forall fixed extra lo, zlen fixed = nargs - 1 -> 1 <= zlen extra ->
     let e := Type_value vtype in
     let cells := map (fun a => Value_assign a e) extra in
     let s1 := fst (new_slice s e cells) in
     let sv := snd (new_slice s e cells) in
     call_fn grow ext_get ext_set ext_len ext_getattr ext_setattr (S fuel) true fa (zlen fixed + zlen extra) xRets pos
             (rev extra ++ rev fixed ++ lo)%list s =
       call_fn grow ext_get ext_set ext_len ext_getattr ext_setattr (S fuel) false fa nargs xRets pos
             (rev (fixed ++ [sv]) ++ lo)%list s1 /\
     sv = refV (fn_sliceType e) (zlen (heap s) + 1) /\
     heap s1 = (heap s ++ [HArr cells; HSlice e (zlen (heap s)) 0 (zlen extra) (zlen extra)])%list) /\
  (forall fixed lo, zlen fixed = nargs - 1 ->
     call_fn grow ext_get ext_set ext_len ext_getattr ext_setattr (S fuel) true fa (zlen fixed) xRets pos
             (rev fixed ++ lo)%list s =
       call_fn grow ext_get ext_set ext_len ext_getattr ext_setattr (S fuel) false fa nargs xRets pos
             (rev (fixed ++ [mkValue vtype (Zn 0) PNone]) ++ lo)%list s) /\
  (forall xArgs ops, xArgs < nargs - 1 ->
     call_fn grow ext_get ext_set ext_len ext_getattr ext_setattr (S fuel) true fa xArgs xRets pos ops s =
       CErr (RFail "runtime error" pos s)) /\
  (forall fixed sv lo, zlen fixed = nargs - 1 -> zlen types >= nargs ->
     vt sv <> untypedInt -> vt sv <> TypeNil ->
     call_fn grow ext_get ext_set ext_len ext_getattr ext_setattr (S fuel) false fa nargs xRets pos
             (rev (fixed ++ [sv]) ++ lo)%list s =
       finish nargs nrets xRets pos types lo
         (exec grow ext_get ext_set ext_len ext_getattr ext_setattr fuel body 0
               (entry_slots (fixed ++ [sv]) types nslots nargs) [] (push_bt s pos)) /\
     nth_error (entry_slots (fixed ++ [sv]) types nslots nargs) (Z.to_nat (nargs - 1)) = Some sv /\
     heap (push_bt s pos) = heap s).
Proof.
  intros * H. repeat apply conj; intros.
  - eapply call_variadic_pack; eassumption.
  - eapply call_variadic_none; eassumption.
  - eapply call_variadic_few; eassumption.
  - now apply call_spread with (vtype := vtype).
Qed.

(* Every recursion depth.  Frame isolation for the mutual fixpoint exec / call_fn at EVERY fuel
   (fuel bounds instructions + calls, hence the nesting depth): running any code, or any call, with
   [lo] below its operands gives the same outcome with [lo] carried along untouched ([lift_r lo] /
   [lift_c lo] append lo to the operands of a success and leave errors alone) -- unless the run on the
   short stack is stuck (an operand access below its own operands).  And from the caller's
   side: a call of a script function with all its xArgs arguments present answers
   [COk (results ++ lo)] or an error that does not depend on [lo], with no exception. *)
Theorem c09_depth :
  forall grow ext_get ext_set ext_len ext_getattr ext_setattr fuel,
  (forall codes pc slots ops s lo,
     (forall w, exec grow ext_get ext_set ext_len ext_getattr ext_setattr fuel codes pc slots ops s <> RStuck w) ->
     exec grow ext_get ext_set ext_len ext_getattr ext_setattr fuel codes pc slots (ops ++ lo)%list s =
       lift_r lo (exec grow ext_get ext_set ext_len ext_getattr ext_setattr fuel codes pc slots ops s)) /\
  (forall pack fa xArgs xRets pos ops s lo,
     (forall w, call_fn grow ext_get ext_set ext_len ext_getattr ext_setattr fuel pack fa xArgs xRets pos ops s <> CErr (RStuck w)) ->
     call_fn grow ext_get ext_set ext_len ext_getattr ext_setattr fuel pack fa xArgs xRets pos (ops ++ lo)%list s =
       lift_c lo (call_fn grow ext_get ext_set ext_len ext_getattr ext_setattr fuel pack fa xArgs xRets pos ops s)) /\
  (forall pack fa xArgs xRets pos args lo s nargs nrets variadic vtype nslots types body,
     hget s fa = Some (HFunc nargs nrets variadic vtype nslots types body) ->
     (variadic = true -> 1 <= nargs) ->
     zlen args = xArgs ->
     call_fn grow ext_get ext_set ext_len ext_getattr ext_setattr fuel pack fa xArgs xRets pos (rev args ++ lo)%list s =
       lift_c lo (call_fn grow ext_get ext_set ext_len ext_getattr ext_setattr fuel pack fa xArgs xRets pos (rev args) s)).
Proof.
  intros. repeat apply conj.
  - apply exec_frame_ns.
  - apply call_frame_ns.
  - apply call_args_frame.
Qed.

(* the function objects FUNC builds (compiled code has 0 <= results, 0 <= body length) are well formed,
   and a variadic one has at least the slice parameter: the side conditions above hold for them *)
Theorem c09_func_wf :
  forall grow ext_get ext_set ext_len ext_getattr ext_setattr codes pc i slots ops s sl' ops' s' d,
  icode i = c_Func -> 0 <= snd (splitParams (iA i)) -> 0 <= iC i ->
  step1 grow ext_get ext_set ext_len ext_getattr ext_setattr codes pc i slots ops s = SJump d sl' ops' s' ->
  exists nargs nrets variadic vtype nslots types body,
    ops' = refV TypeFunc (zlen (heap s)) :: ops /\
    heap s' = (heap s ++ [HFunc nargs nrets variadic vtype nslots types body])%list /\
    wf_func nargs nrets types /\ (variadic = true -> 1 <= nargs).
Proof. exact func_wf. Qed.

(* Bound methods (Model/Call.v: top of the stack at the END of the list; Model/VM.v has no struct
   objects).  The method value made when the attribute was read keeps [obj]; calling it -- at once or
   later, on any stack [lo ++ args] -- runs the body of the script function with [obj] as parameter 0
   and the arguments after it, each assigned its declared type, and delivers the typed results on [lo];
   a wrong argument count is "incorrect args".  (Variadic methods: theorem c19_method.) *)
Theorem c09_method :
  forall nargs rets atys rtys code, 1 <= nargs ->
  (forall a outs, code a = Call.Good outs -> Call.slen outs = rets) ->
  let f := C19_adapter.script_fn nargs rets atys rtys code in
  (forall obj lo args xRets, Call.slen args = nargs - 1 -> 0 <= xRets ->
     Call.call (lo ++ args)%list (Call.newMethod obj f) (Call.slen args) xRets =
       Call.cbind (code (Call.assign_zip atys (obj :: args)))
                  (fun outs => C19_adapter.deliver lo (Call.assign_zip rtys outs) xRets)) /\
  (forall obj lo args xRets, Call.slen args <> nargs - 1 ->
     Call.call (lo ++ args)%list (Call.newMethod obj f) (Call.slen args) xRets = Call.Fail Call.EIncorrectArgs).
Proof.
  intros * Hn Hc f. split.
  - now apply C09_method.method_script.
  - now apply C09_method.method_script_wrong.
Qed.

Print Assumptions c09_call.
Print Assumptions c09_param_types.
Print Assumptions c09_variadic.
Print Assumptions c09_depth.
Print Assumptions c09_func_wf.
Print Assumptions c09_method.

(* non-vacuity.  (a) f(p0 float64, p1 uint8) (uint8, float64) { return p1, p0 } called with the untyped
   constants 3 and 7 above an unrelated operand: the results arrive as uint8 7 and float64 3.0 on top of
   it; one argument: "incorrect args"; three results requested: "incorrect returns".
   (b) g(base int, xs ...float64) int { return len(xs) } called with 1, 2, 3, 4: one new slice of three
   float64 cells; called with 1 alone: len 0 and the heap is unchanged (nothing allocated);
   h(xs ...float64) []float64 { return xs } called without arguments answers the nil []float64.
   (c) the code the compiler emits for
   func sum(n int) int { if n == 0 { return 0 }; return n + sum(n-1) };  fmt.Println(sum(3000))
   run by the model: 3000 nested frames, prints 4501500. *)
Example c09_witness :
  let grow := fun _ n : Z => n in
  let eg := fun (_ : st) (_ _ : value) => @None (res value) in
  let es := fun (_ : st) (_ _ _ : value) => @None (res st) in
  let el := fun (_ : st) (_ : value) => @None Z in
  let ega := fun (_ : st) (_ : value) (_ : Z) => @None (res (value * st)) in
  let esa := fun (_ : st) (_ : value) (_ : Z) (_ : value) => @None (res st) in
  let I c a := mkI c a 0 0 0 in
  let f := HFunc 2 2 false 0 3 [TypeFloat64; TypeUint8; TypeUint8; TypeFloat64]
             [I c_LocalGet 1; I c_LocalGet 0; I c_Return 0] in
  let gv := HFunc 2 1 true (fn_sliceType TypeFloat64) 2 [TypeInt32; fn_sliceType TypeFloat64; TypeInt32]
             [I c_LocalGet 1; I c_Len 0; I c_Return 0] in
  let hv := HFunc 1 1 true (fn_sliceType TypeFloat64) 1 [fn_sliceType TypeFloat64; fn_sliceType TypeFloat64]
             [I c_LocalGet 0; I c_Return 0] in
  let s := mkSt [] [f; gv; hv] [] [] in
  let lo := [fn_String [98]] in
  call_fn grow eg es el ega esa 10 true 0 2 2 77 (rev [Untyped 3; Untyped 7] ++ lo)%list s =
    COk ([F (float_of_Z 3); V U8 7] ++ lo)%list s /\
  call_fn grow eg es el ega esa 10 true 0 1 2 77 (rev [Untyped 3] ++ lo)%list s = CErr (RFail "incorrect args" 77 s) /\
  call_fn grow eg es el ega esa 10 true 0 2 3 77 (rev [Untyped 3; Untyped 7] ++ lo)%list s = CErr (RFail "incorrect returns" 77 s) /\
  call_fn grow eg es el ega esa 10 true 1 4 1 77 (rev [Untyped 1; Untyped 2; Untyped 3; Untyped 4] ++ lo)%list s =
    COk (fn_Int 3 :: lo)
        (mkSt [] [f; gv; hv; HArr [F (float_of_Z 2); F (float_of_Z 3); F (float_of_Z 4)]; HSlice TypeFloat64 3 0 3 3] [] []) /\
  call_fn grow eg es el ega esa 10 true 1 1 1 77 (rev [Untyped 1] ++ lo)%list s = COk (fn_Int 0 :: lo) s /\
  call_fn grow eg es el ega esa 10 true 2 0 1 77 lo s =
    COk (mkValue (fn_sliceType TypeFloat64) (Zn 0) PNone :: lo) s /\
  CorrVM.run_rcase (CorrVM.CRun
    [mkI c_Func (joinParams 1 1) 1 12 0; I c_Pass TypeInt32; I c_Pass TypeInt32;
     I c_LocalGet 0; I c_Push 0; I c_Eq 0; I c_JumpFalse 2; I c_Push 0; I c_Return 1;
     I c_LocalGet 0; I c_LocalGet 0; I c_IncDec (-1); mkI c_FastCall 0 1 1 0; I c_Add 0; I c_Return 1;
     I c_GlobalFunc 0;
     I c_Push 3000; mkI c_FastCall 0 1 1 0; mkI c_FastCall 2 1 0 0]
    0 3 [(2, CorrVM.GNative "fmt.Println")] [52;53;48;49;53;48;48;10] true 0) = 0.
Proof.
  intros. do 6 (split; [vm_compute; reflexivity|]).
  (* (c): the instructions before the call of sum by evaluation, the call by [sum_call] at 3000, the println
     after it by evaluation; the fuel beyond the six units these need is a variable, so that evaluation stops
     at the call (which asks for 9 * 3000 + 7 and is entered with h + 2) *)
  unfold CorrVM.run_rcase, run.
  assert (E : exists h, Z.to_nat 400000 = (6 + h)%nat /\ 27005 <= Z.of_nat h) by (exists (Z.to_nat 399994); lia).
  destruct E as (h & -> & H). cbn [Nat.add].
  do 4 (rewrite exec_S; cbv -[exec call_fn]).
  rewrite (sum_call _ _ _ _ _ _ 1 3000) by first [reflexivity | lia].
  vm_compute. reflexivity.
Qed.
