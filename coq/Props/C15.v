(* C15 -- packages initialise once each, dependencies first, for any import graph.
   Model/Loader.v transcribes the two loops of loadImports (discovery worklist, ordering
   loop) over an abstract file system `imports`; tie: correspondence with Load on
   in-memory file trees (exact order of the packages' top-level code) on every run. *)
From Coq Require Import List String Bool PeanoNat.
From GV Require Import Model.Loader Proofs.C15_loader.
Import ListNotations.
Open Scope string_scope.

Section C15.
  Variable imports : string -> option (list string).
  (* the part of the import graph reachable from the top package is finite: `universe` lists it
     (a premise about THIS top: `reach imports top top` holds for every top, so no finite list can
     cover all tops at once) *)
  Variable universe : list string.
  Variable top : string.
  Hypothesis universe_ok : forall p, reach imports top p -> In p universe.

  (* the discovery worklist terminates within its budget (the Go loop terminates) *)
  Theorem c15_terminates : forall b, budget imports universe <= b -> load imports b top <> LoadFuel.
  Proof. intros b. exact (c15_no_fuel imports universe top b universe_ok). Qed.

  (* whatever order is produced lists exactly the packages reachable from the top package, each once,
     every package after all the packages it imports *)
  Theorem c15_order : forall b l, budget imports universe <= b ->
    load imports b top = LoadOk l -> valid_order imports top l.
  Proof. intros b l. exact (C15_loader.c15_order imports universe top b l universe_ok). Qed.

  (* an import cycle among the reachable packages is an error -- never a wrong order *)
  Theorem c15_cycle : forall b, budget imports universe <= b -> cyclic imports top -> load imports b top = LoadCycle.
  Proof. intros b. exact (C15_loader.c15_cycle imports universe top b universe_ok). Qed.

  (* and every acyclic graph loads *)
  Theorem c15_acyclic : forall b, budget imports universe <= b -> ~ cyclic imports top ->
    exists l, load imports b top = LoadOk l.
  Proof. intros b. exact (C15_loader.c15_acyclic imports universe top b universe_ok). Qed.

  (* the code that then runs (Model/Loader.v run_events: the packages' code concatenated in list order, nf p
     files of top-level code and the init calls per package): no piece of code of an imported package q runs
     after any piece of code of its importer p, and each reachable package's code runs exactly once *)
  Theorem c15_events : forall b l nf, budget imports universe <= b -> load imports b top = LoadOk l ->
    forall p q, In p l -> edge imports p q ->
    forall pre post, run_events nf l = (pre ++ p :: post)%list -> ~ In q post.
  Proof.
    intros b l nf Hb Hl. exact (C15_loader.c15_events imports top l nf (C15_loader.c15_order imports universe top b l universe_ok Hb Hl)).
  Qed.
  Theorem c15_events_once : forall b l nf, budget imports universe <= b -> load imports b top = LoadOk l ->
    forall p, reach imports top p -> count_occ string_dec (run_events nf l) p = S (nf p).
  Proof.
    intros b l nf Hb Hl p Hr.
    pose proof (C15_loader.c15_order imports universe top b l universe_ok Hb Hl) as HV.
    apply (C15_loader.c15_events_once imports top l nf HV). destruct HV as (_ & Hiff & _). apply Hiff; exact Hr.
  Qed.
End C15.
Print Assumptions c15_events.
Print Assumptions c15_events_once.
Print Assumptions c15_terminates.
Print Assumptions c15_order.
Print Assumptions c15_cycle.
Print Assumptions c15_acyclic.

(* the premise is satisfiable: every graph given by a finite association list has such a universe for
   every top (the top itself plus every package mentioned anywhere in the list) *)
Definition graph_of (g : list (string * list string)) (p : string) : option (list string) :=
  (fix find (l : list (string * list string)) := match l with [] => None | (k, v) :: r => if String.eqb k p then Some v else find r end) g.
Definition mentioned (g : list (string * list string)) : list string :=
  List.concat (map (fun kv => fst kv :: snd kv) g).
Theorem c15_premise_satisfiable : forall g top p, reach (graph_of g) top p -> In p (top :: mentioned g).
Proof.
  intros g top p H. destruct H as [|a b _ (imps & Hi & Hb)]; [left; reflexivity|].
  right. unfold mentioned. revert Hi. unfold graph_of. induction g as [|[k v] r IHg]; [discriminate|].
  cbn [map List.concat fst snd]. destruct (String.eqb k a); intros Hi; right; apply in_or_app.
  - left. injection Hi as ->. exact Hb.
  - right. apply IHg, Hi.
Qed.
Print Assumptions c15_premise_satisfiable.

(* non-vacuity: a diamond with a duplicate import and a native package; a two-cycle below main *)
Example c15_witness :
  let g1 := fun p => if String.eqb p "main" then Some ["b"; "a"; "b"; "fmt"] else if String.eqb p "b" then Some ["a"; "c"]
            else if String.eqb p "a" then Some ["c"] else if String.eqb p "c" then Some [] else None in
  let g2 := fun p => if String.eqb p "main" then Some ["a"] else if String.eqb p "a" then Some ["b"]
            else if String.eqb p "b" then Some ["a"] else None in
  load g1 20 "main" = LoadOk ["c"; "a"; "b"; "fmt"; "main"] /\ load g2 20 "main" = LoadCycle /\
  run_events (fun p => if String.eqb p "a" then 2 else 1) ["c"; "a"; "main"] = ["c"; "c"; "a"; "a"; "a"; "main"; "main"].
Proof. vm_compute. repeat split; reflexivity. Qed.
