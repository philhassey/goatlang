(* C12 -- struct fields are independent, typed, and shared through references:
   full functional correctness of the robin-hood field table (Model/IntMap.v, a
   transcription of /repo/intmap.go tied cell-by-cell to the implementation by the
   VerifIntMap correspondence on every run). V = stored values; assignV new old =
   new.assign(old.t). *)
From Coq Require Import ZArith List Bool.
From GV Require Import Model.IntMap Proofs.C12_intmap.
Import ListNotations.

Section C12.
  Context {V : Type} (vzero : V) (assignV : V -> V -> V).
  Notation imap := (@imap V).

  (* a fresh table satisfies the invariant and is empty, for every requested capacity *)
  Theorem c12_new : forall alloc, Inv vzero (newIntMap vzero alloc) /\
    (forall k, find vzero (newIntMap vzero alloc) k = None) /\ len (newIntMap vzero alloc) = 0.
  Proof.
    intros alloc. split; [exact (inv_new vzero assignV alloc)|].
    split; [intro k; exact (proj1 (new_empty vzero assignV alloc k)) | exact (proj2 (new_empty vzero assignV alloc 0%Z))].
  Qed.

  (* the probing loop of Get never exhausts its budget: the Go `for {}` loop terminates.  For the loops of Set,
     Assign and Delete the same is the `= Some m'` of the theorems below. *)
  Theorem c12_budget : forall (m : imap) k, Inv vzero m -> exists r, get vzero m k = Some r.
  Proof. exact (get_total vzero assignV). Qed.

  (* Set: the key now holds the value, every other key is untouched, the invariant is kept -- across every
     growth threshold and collision pattern (all keys, all histories) *)
  Theorem c12_set : forall (m : imap) k v, Inv vzero m ->
    exists m', set vzero m k v = Some m' /\ Inv vzero m' /\
      find vzero m' k = Some v /\ (forall k', k' <> k -> find vzero m' k' = find vzero m k') /\
      len m' = (if find vzero m k then len m else S (len m)).
  Proof. exact (set_spec vzero assignV). Qed.

  (* Assign (field store): only an existing field changes, and it keeps its declared type *)
  Theorem c12_assign : forall (m : imap) k v, Inv vzero m ->
    exists m', assign vzero assignV m k v = Some m' /\ Inv vzero m' /\
      find vzero m' k = option_map (assignV v) (find vzero m k) /\
      (forall k', k' <> k -> find vzero m' k' = find vzero m k') /\ len m' = len m.
  Proof. exact (assign_spec vzero assignV). Qed.

  (* Delete (backward shift) removes exactly that key *)
  Theorem c12_delete : forall (m : imap) k, Inv vzero m ->
    exists m', delete vzero m k = Some m' /\ Inv vzero m' /\
      find vzero m' k = None /\ (forall k', k' <> k -> find vzero m' k' = find vzero m k') /\
      len m' = (if find vzero m k then len m - 1 else len m).
  Proof. exact (delete_spec vzero assignV). Qed.

  Theorem c12_len : forall (m : imap), Inv vzero m ->
    exists keys, NoDup keys /\ length keys = len m /\ forall k, In k keys <-> find vzero m k <> None.
  Proof. exact (len_spec vzero assignV). Qed.
End C12.
Print Assumptions c12_new.
Print Assumptions c12_budget.
Print Assumptions c12_set.
Print Assumptions c12_assign.
Print Assumptions c12_delete.
Print Assumptions c12_len.

(* non-vacuity: 20 colliding keys cross the first growth threshold (16 -> 32 cells) and every one is found *)
Example c12_witness :
  let ks := map (fun i => Z.of_nat (16 * i + 3)) (seq 0 20) in
  let m := fold_left (fun m k => match m with Some m => set 0%Z m k (k + 1)%Z | None => None end) ks (Some (newIntMap 0%Z 0)) in
  match m with
  | Some m => size m = 32 /\ len m = 20 /\ map (fun k => find 0%Z m k) ks = map (fun k => Some (k + 1)%Z) ks
  | None => False
  end.
Proof. vm_compute. repeat split; reflexivity. Qed.
