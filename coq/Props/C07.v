(* C07 -- statements are stack-neutral and call frames are isolated on every path.

   Model/StackCheck.v [check_code ng ns final codes] is a static checker of instruction lists: one
   operand depth per pc on ALL control-flow paths (so every loop body and every branch arm is
   stack-neutral), depth never negative, every branch target inside the list, every LOCAL* operand a
   slot of the frame, every GLOBAL* operand an existing global, every call finding its arguments,
   every exit at depth [final], every FUNC body checked the same way in its own frame.  The theorems
   below say what acceptance by the checker buys in the VM model (Model/VM.v: exec = the dispatch
   loop of do.go, call_fn = call / callReady / mkFunc of vm.go), for every fuel, every growth policy
   of append and every behaviour of the objects outside the modelled fragment that keeps the state
   invariant [st_ok].  The tie to the implementation: the harness runs this very checker (vm_compute)
   on the real compiler output of every generated program and every test-table input (c07-check).

   [st_ok ng s]: at least ng globals; every function object on the heap has a checked body.
   [heap_reason w]: w is one of the two dangling-heap-reference reasons ("func object", "bad array"),
   which are not stack accesses (see Model/StackCheck.v).  These are exactly 2 of the 40 distinct
   RStuck / SStuck diagnostic strings of Model/VM.v; the other 38 (operand underflow of each opcode, "local
   slot", "global index", "FUNC body", "arguments", ...) are what c07_sound excludes
   (Witness/NV_C07C02.v nv_heap_reason_tight lists them).

   SILENT EXCLUSIONS -- what the theorems below do NOT cover although their statements do not say so at
   first sight.  The VM model has a result RUnmod ("outside the modelled fragment") next to RDone / RFail /
   RStuck / RFuel, and every theorem's conclusion is True (or speaks of RStuck / RDone only) for it:
   - seven opcodes are ACCEPTED by check_code (with their operand arithmetic) but are RUnmod "opcode" in the
     model: NEWMAP, STRUCT, NEWSTRUCT, GETOK, DELETE, SETMETHOD, GLOBALSTRUCT (creation of maps and structs,
     comma-ok lookup, delete, method and type declarations).  A run ENDS with RUnmod at the first such
     instruction: the theorems say nothing about what the real VM does from that instruction on -- for a
     program that declares a struct type (GLOBALSTRUCT is top-level code) that is almost everything
     (Witness/NV_C07C02.v nv_c07_unmod).  For such programs only the static half remains: the harness runs
     check_code on the real compiler output (c07-check), and the checker's depth arithmetic for those seven
     opcodes is the hand-written table of Model/StackCheck.v, not backed by a run theorem;
   - operations on values outside the modelled fragment (maps, struct instances, host objects: GET / SET /
     LEN / RANGE / SLICE / APPEND / COPY on them) go through the oracles ext_* where one exists (get, set,
     len, getattr, setattr: covered, under the hypotheses ext_*_ok) and are RUnmod otherwise (range, slice,
     append, copy on a non-slice);
   - natives other than the print family (builtin.print / println, fmt.Print / Println) are RUnmod
     "native function": c07_frame's "any native of the print family" is literal, every other native call
     (len is an opcode; but e.g. the functions of the strings, slices and math packages) ends the modelled run;
   - RFail (a run-time panic: the Go runtime unwinds the frame) and RFuel are not stack accesses and get the
     conclusion True as well. *)
From Coq Require Import ZArith List String Bool.
From GV Require Import GoSpec.GoPrim Gen.ValueOps_gen Model.VM Model.StackCheck Proofs.C07_step Proofs.C07_sound.
Import ListNotations.
Open Scope Z_scope.

Section C07.
  Variable grow : Z -> Z -> Z.
  Variable ext_get : st -> value -> value -> option (res value).
  Variable ext_set : st -> value -> value -> value -> option (res st).
  Variable ext_len : st -> value -> option Z.
  Variable ext_getattr : st -> value -> Z -> option (res (value * st)).
  Variable ext_setattr : st -> value -> Z -> value -> option (res st).
  Variable ng : Z.
  (* maps, structs and host objects neither drop globals nor forge function objects with unchecked bodies *)
  Hypothesis ext_set_ok : forall s r k v s', st_ok ng s -> ext_set s r k v = Some (Ok s') -> st_ok ng s'.
  Hypothesis ext_getattr_ok : forall s r k v s', st_ok ng s -> ext_getattr s r k = Some (Ok (v, s')) -> st_ok ng s'.
  Hypothesis ext_setattr_ok : forall s r k v s', st_ok ng s -> ext_setattr s r k v = Some (Ok s') -> st_ok ng s'.

  Notation exec := (VM.exec grow ext_get ext_set ext_len ext_getattr ext_setattr).
  Notation call_fn := (VM.call_fn grow ext_get ext_set ext_len ext_getattr ext_setattr).
  Notation run := (VM.run grow ext_get ext_set ext_len ext_getattr ext_setattr).

  (* checked code never reaches below the operands of its frame, never names a slot outside its frame or
     a global that does not exist, never runs a placeholder or malformed FUNC -- in its own frame or in
     any callee frame, on any path, for any input state satisfying the invariant *)
  Theorem c07_sound : forall ns final codes fuel slots s w,
    check_code ng ns final codes = true -> zlen slots = ns -> st_ok ng s ->
    exec fuel codes 0 slots [] s = RStuck w -> heap_reason w.
  Proof. exact (checked_not_stuck grow ext_get ext_set ext_len ext_getattr ext_setattr ng ext_set_ok ext_getattr_ok ext_setattr_ok). Qed.

  (* a run that completes leaves exactly the static depth of the exit it took (the end of the list or a
     RETURN) -- with final = Some n exactly n operands: no residual values for n = 0, exactly nrets
     results for a function body -- and the frame still has its ns slots; the invariant is kept *)
  Theorem c07_depth : forall ns final codes fuel slots s slots' ops' s',
    check_code ng ns final codes = true -> zlen slots = ns -> st_ok ng s ->
    exec fuel codes 0 slots [] s = RDone slots' ops' s' ->
    zlen slots' = ns /\ st_ok ng s' /\ (forall n, final = Some n -> zlen ops' = n) /\
    exists pcx, 0 <= pcx <= zlen codes /\ is_exit codes pcx /\ depth_at codes pcx = Some (zlen ops').
  Proof. exact (checked_exit_depth grow ext_get ext_set ext_len ext_getattr ext_setattr ng ext_set_ok ext_getattr_ok ext_setattr_ok). Qed.

  (* VM.run on package-level code (final = Some 0): no values are left above the slots *)
  Theorem c07_run : forall ns codes fuel s,
    check_code ng ns (Some 0) codes = true -> st_ok ng s ->
    match run fuel codes ns s with
    | RDone slots' ops' s' => ops' = [] /\ zlen slots' = ns /\ st_ok ng s'
    | RStuck w => heap_reason w
    | _ => True
    end.
  Proof. exact (checked_run_empty grow ext_get ext_set ext_len ext_getattr ext_setattr ng ext_set_ok ext_getattr_ok ext_setattr_ok). Qed.

  (* frames are isolated: whatever function object is called (any checked script function, variadic or
     not, or a native of the print family), a call that returns has removed exactly its xa arguments and
     pushed exactly the xr requested results; the rest of the caller's operand stack is untouched, the
     caller's slots are not reachable from the callee at all (call_fn does not receive them); a call that
     does not return normally is an error result, never a stack access below the callee's frame *)
  Theorem c07_frame : forall fuel pack fa xa xr pos ops s,
    st_ok ng s -> 0 <= xa <= zlen ops -> 0 <= xr ->
    match call_fn fuel pack fa xa xr pos ops s with
    | COk ops' s' => st_ok ng s' /\ exists results, zlen results = xr /\ ops' = (results ++ skipn (Z.to_nat xa) ops)%list
    | CErr (RStuck w) => heap_reason w
    | CErr _ => True
    end.
  Proof. exact (call_frame_isolated grow ext_get ext_set ext_len ext_getattr ext_setattr ng ext_set_ok ext_getattr_ok ext_setattr_ok). Qed.

End C07.

(* the state before any code ran (natives only on the heap) satisfies the invariant *)
Theorem c07_init : forall ng s,
  ng <= zlen (globals s) -> Forall (fun o => match o with HFunc _ _ _ _ _ _ _ => False | _ => True end) (heap s) -> st_ok ng s.
Proof. exact st_ok_natives. Qed.

Print Assumptions c07_sound.
Print Assumptions c07_depth.
Print Assumptions c07_run.
Print Assumptions c07_frame.
Print Assumptions c07_init.

(* non-vacuity: the real compiler output (optimizer off) of
     func f(a int) (int, int) { s := 0; for i := 0; i < 5; i++ { if i == a { break }; s += i }; return s, a }
     x, y := f(4)
   is accepted, runs to completion in the model without residual operands and with x = 6, y = 4;
   the same code with the second result of "return s, a" dropped is rejected at the RETURN. *)
Definition c07_ex (ret2 : instr) : list instr :=
  let T := mkI (C "codeType") 23 0 0 0 in
  [ mkI c_Func (joinParams 1 2) 3 24 0; T; T; T;
    mkI c_Push 0 0 0 0; mkI c_LocalSet 1 0 0 0; mkI c_Push 0 0 0 0; mkI c_LocalSet 2 0 0 0; mkI c_Jump 12 0 0 0;
    mkI c_LocalGet 2 0 0 0; mkI c_LocalGet 0 0 0 0; mkI c_Eq 0 0 0 0; mkI c_JumpFalse 1 0 0 0; mkI c_Jump 11 0 0 0;
    mkI c_LocalGet 1 0 0 0; mkI c_LocalGet 2 0 0 0; mkI c_Add 0 0 0 0; mkI c_LocalSet 1 0 0 0;
    mkI c_LocalGet 2 0 0 0; mkI c_IncDec 1 0 0 0; mkI c_LocalSet 2 0 0 0;
    mkI c_LocalGet 2 0 0 0; mkI c_Push 5 0 0 0; mkI c_Lt 0 0 0 0; mkI c_JumpTrue (-16) 0 0 0;
    mkI c_LocalGet 1 0 0 0; ret2; mkI c_Return 2 0 0 0;
    mkI c_GlobalFunc 0 0 0 0; mkI c_Push 4 0 0 0; mkI c_GlobalGet 0 0 0 0; mkI c_Call 1 2 0 0;
    mkI c_GlobalSet 2 0 0 0; mkI c_GlobalSet 1 0 0 0 ].

Example c07_witness :
  let good := c07_ex (mkI c_LocalGet 0 0 0 0) in
  let bad := c07_ex (mkI c_Pass 0 0 0 0) in
  let s0 := mkSt [nilV; nilV; nilV] [] [] [] in
  check_code 3 0 (Some 0) good = true /\
  (match run (fun _ n => n) (fun _ _ _ => None) (fun _ _ _ _ => None) (fun _ _ => None) (fun _ _ _ => None)
             (fun _ _ _ _ => None) 1000 good 0 s0 with
   | RDone [] [] s => map Value_Int (tl (globals s)) = [6; 4]
   | _ => False
   end) /\
  check_code 3 0 (Some 0) bad = false /\
  (match check_code_diag 3 0 (Some 0) bad with DBad pc d _ => pc = 27 /\ d = 1 | DOk => False end).
Proof. vm_compute. repeat split; reflexivity. Qed.
