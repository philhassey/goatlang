(* C14 -- printed values look as Go prints them, and printing always terminates.
   Spec: GoSpec/GoFmt.v ([go_fmt], Go's %v; struct references `&{F:v ...}` = Go's %+v).
   Model: Model/Print.v, transcription of Value.String / safeStr / SafeStr and of vaSprint,
   fmt.Print/Println/Sprint (tie: correspondence `c14-corr` through the host API on every run).
   [ff] = fmt.Sprint on a float64 (strconv shortest representation), shared by model and spec.
   Values live in a heap (addr -> option object) that may be cyclic; [repr h v g] says that
   the goatlang value v in heap h represents the Go value g. *)
From Coq Require Import ZArith List Bool Floats String.
From GV Require Import GoSpec.GoPrim GoSpec.GoFmt Gen.ValueOps_gen Model.Print Proofs.C14_print.
Import ListNotations.
Open Scope Z_scope.

(* decimal rendering of integers: reading back what was printed gives the number
   (so the rendering is a well-formed numeral and injective) *)
Theorem c14_decimal : forall z, parse_dec (print_Z z) = Some z.
Proof. exact parse_print_Z. Qed.

Section C14.
  Variable ff : float -> bytes.

  (* termination is by construction: string_top / safe_str / safe_str_leaf are total, fuel-free
     functions that do not recurse through the heap.  On every well-formed heap -- tags consistent
     with payloads, no dangling reference; cycles allowed -- the rendering is a string (no panic,
     nothing unmodelled), for single values and for Println of any operand list.
     wf_value (Proofs/C14_print.v) covers: nil, booleans, the integer tags, float64, strings, and slice /
     map / struct values that are nil or refer to an object of the heap.  It EXCLUDES function values
     (TypeFunc) and host objects (TypeObject): their rendering (an address / the host's String method) is
     not modelled and this theorem says nothing about operands that are or contain one. *)
  Theorem c14_total : forall h,
    wf_heap h ->
    (forall v, wf_value h v -> exists s, string_top ff h v = Ok s) /\
    (forall vs, Forall (wf_value h) vs -> exists s, fmt_Println ff h vs = Ok s).
  Proof. exact (fun h W => conj (fun v => total_on_wf ff h v W) (fun vs => println_total ff h vs W)). Qed.

  (* the rendering dereferences at most two levels of references: it is the same in any two heaps
     that agree on the object of v and on the objects its elements refer to *)
  Theorem c14_depth_bound : forall h h' v,
    (forall a, In a (reach1 v ++ reach2 h v) -> h a = h' a) ->
    string_top ff h v = string_top ff h' v.
  Proof. exact (depth_bound ff). Qed.

  (* booleans, integers of each width (int8, uint8, int32, uint32: all values, including
     uint32 >= 2^31) and strings print as Go prints them.
     The float conjunct is PARAMETRIC / definitional: model and spec share the formatter [ff] (a Section
     variable standing for strconv's shortest representation), so `string_top ... (Fn f) = go_fmt (GFloat f)`
     holds for every ff, by unfolding both sides to `ff f`.  It says that goatlang hands the float64 to fmt
     unchanged (no rounding, no own formatting); it says NOTHING about how a float is formatted.  The actual
     formatting is compared with the Go toolchain by the correspondence c14-corr only. *)
  Theorem c14_scalars : forall h,
    (forall b : bool, string_top ff h (mkValue TypeBool (Zn (if b then 1 else 0)) PNone) = Ok (go_fmt ff (GBool b))) /\
    (forall t z, bits t <= 32 -> in_range t z = true ->
       string_top ff h (mkValue (tag_of t) (Zn z) PNone) = Ok (go_fmt ff (GInt z))) /\
    (forall f, string_top ff h (mkValue TypeFloat64 (Fn f) PNone) = Ok (go_fmt ff (GFloat f))) /\
    (forall s, string_top ff h (mkValue TypeString (Zn 0) (PStr s)) = Ok (go_fmt ff (GStr s))).
  Proof.
    intros h. repeat split; intros; apply repr_noref; try discriminate; constructor; try reflexivity.
    - now destruct t.
    - eapply in_range_I64; eauto.
  Qed.

  (* every operand of nesting depth <= 2 (scalars; slices, single-entry/empty/nil maps of scalars;
     slices and maps of those; struct references whose fields have depth <= 1) prints as Go prints it,
     in any heap that represents it.
     What [repr] (Proofs/C14_print.v) does NOT relate, so that the theorem is silent about it:
     - the Go value GNil (nil interface / nil pointer): no goatlang value represents it -- see
       c14_nil_refuted below for what goatlang prints there;
     - maps with two or more entries (Go sorts the keys; not modelled), struct references nested inside a
       slice or map (Go prints an address), function and host values. *)
  Theorem c14_nested : forall h v g,
    repr_top h v g -> (depth_top g <= 2)%nat -> string_top ff h v = Ok (go_fmt_top ff g).
  Proof. exact (nested_correct ff). Qed.

  (* Println: operands separated by exactly one space, newline appended: Go's fmt.Println rule
     (go_println).  Print of ONE operand = the operand (go_print1).
     The Sprint conjunct states the MODEL's rule -- always one space between operands
     (join_sp (map go_fmt_top gs)) -- which is goatlang's vaSprint, NOT Go's fmt.Sprint: Go's Sprint (and
     Print) add a space between two operands only when neither is a string (fmt.Sprint("a","b") = "ab",
     goatlang prints "a b").  So for >= 2 operands that conjunct describes goatlang's behaviour against its
     own rule, and agrees with Go only when no two adjacent operands include a string; for one operand it
     is Go's result. *)
  Theorem c14_println : forall h vs gs,
    Forall2 (fun v g => repr_top h v g /\ (depth_top g <= 2)%nat) vs gs ->
    fmt_Println ff h vs = Ok (go_println ff gs) /\
    fmt_Sprint ff h vs = Ok (join_sp (map (go_fmt_top ff) gs)) /\
    (forall v g, vs = [v] -> gs = [g] -> fmt_Print ff h vs = Ok (go_print1 ff g)).
  Proof.
    intros h vs gs F. unfold fmt_Println, fmt_Sprint, fmt_Print, va_sprint.
    rewrite (sprint_all_correct ff h _ (fun v g RD => nested_correct ff h v g (proj1 RD) (proj2 RD)) vs gs F).
    repeat split. intros v g -> ->. reflexivity.
  Qed.
End C14.

(* KNOWN FINDING (refutation of the property beyond depth 2): [][][]int{{{1}}} prints [[...]],
   Go prints [[[1]]] *)
Theorem c14_deep_refuted : forall ff, exists h v g,
  repr_top h v g /\ depth_top g = 3%nat /\ string_top ff h v <> Ok (go_fmt_top ff g).
Proof.
  intros ff. exists deep_heap, deep_value, (GVal deep_gval).
  split; [exact deep_repr|]. split; [reflexivity|]. vm_compute. discriminate.
Qed.

(* second disagreement: a nil interface / nil struct pointer prints nil, Go prints <nil> *)
Theorem c14_nil_refuted : forall ff h,
  string_top ff h (mkValue TypeNil (Zn 0) PNone) = Ok (bs "nil") /\
  (forall t, Type_base t = TypeStruct -> string_top ff h (mkValue t (Zn 0) PNone) = Ok (bs "nil")) /\
  go_fmt ff GNil = bs "<nil>" /\ bs "nil" <> bs "<nil>".
Proof.
  intros ff h. repeat split.
  - intros t E. unfold string_top, value_string. cbn [vt vval]. rewrite E. reflexivity.
  - vm_compute. discriminate.
Qed.

Print Assumptions c14_decimal.
Print Assumptions c14_total.
Print Assumptions c14_depth_bound.
Print Assumptions c14_scalars.
Print Assumptions c14_nested.
Print Assumptions c14_println.
Print Assumptions c14_deep_refuted.
Print Assumptions c14_nil_refuted.

(* non-vacuity: a slice containing itself lives in a well-formed heap and prints [[...]];
   [][]int{{1 2} {}} prints [[1 2] []]; -128 prints "-128" *)
Example c14_witness : forall ff,
  wf_heap cyc_heap /\
  string_top ff cyc_heap (mkValue 394297472 (Zn 0) (PRef 1)) = Ok (bs "[[...]]") /\
  string_top ff (heap_of [(1, OSlice [mkValue 6016 (Zn 0) (PRef 2); mkValue 6016 (Zn 0) (PRef 3)]);
                          (2, OSlice [mkValue TypeInt32 (Zn 1) PNone; mkValue TypeInt32 (Zn 2) PNone]);
                          (3, OSlice [])])
             (mkValue 1540224 (Zn 0) (PRef 1)) = Ok (bs "[[1 2] []]") /\
  print_Z (-128) = bs "-128".
Proof. intros ff. split; [exact cyc_wf|]. vm_compute. repeat split. Qed.
