(* C01 -- programs in the supported Go subset run as the Go toolchain runs them.
   No formal semantics of Go is available offline, so C01 is claimed as the composition of the facet
   properties (C04-C16, each with its own theorems) plus the whole-program differential against the Go
   toolchain.  The theorems here are the part of that composition that is closed end to end: for
   expressions, goatlang's parser (generated table), opcode selection (generated infixMap) and operator
   implementations (generated from value.go) agree with Go's grouping and Go's int32 operators, for every
   token list, every variable assignment and every operand value. *)
From Coq Require Import ZArith List String Bool.
From GV Require Import GoSpec.GoPrim GoSpec.GoPrec Gen.ValueOps_gen Gen.Tables_gen Model.Pratt Model.PrattInst Model.ExprEval
                        Proofs.C04_ops Proofs.C05_inst Proofs.C01_expr Model.VM Gen.Steps_gen Proofs.C04_vm.
Import ListNotations.
Open Scope string_scope.
Open Scope Z_scope.

Theorem c01_expr_eval : forall (env : string -> Z) t,
  (forall x, in_range I32 (env x) = true) -> arith t = true ->
  eval_goat (fun x => V I32 (env x)) t = lift32 (eval_go env t) /\
  (forall z, eval_go env t = Ok z -> in_range I32 z = true).
Proof. exact c01_eval_agrees. Qed.
Print Assumptions c01_expr_eval.

Theorem c01_expr_partial : table_ok_b = true ->
  forall ts t (env : string -> Z), goat_parse ts = inl (t, []) ->
  (forall x, in_range I32 (env x) = true) -> arith t = true ->
  flatten t = ts /\ grouped go_prec t /\
  eval_goat (fun x => V I32 (env x)) t = lift32 (eval_go env t).
Proof. exact c01_expr. Qed.
Print Assumptions c01_expr_partial.
(* _partial: the full property quantifies over whole programs (statements, calls, containers, strings,
   printing, packages); those are covered by C02-C20 separately and by the differential, not by this theorem. *)

Example c01_witness :
  let ts := [TAtom false "a"; TSym "<<"; TAtom false "b"; TSym "-"; TAtom false "c"; TSym "*"; TSym "-"; TAtom false "a"] in
  let env := fun x => if String.eqb x "a" then 1 else if String.eqb x "b" then 31 else 2147483647 in
  match goat_parse ts with
  | inl (t, []) => arith t = true /\ eval_go env t = Ok (-1) /\ eval_goat (fun x => V I32 (env x)) t = Ok (V I32 (-1))
  | _ => False
  end.
Proof. vm_compute. repeat split; reflexivity. Qed.

(* The dispatch loop is part of the composition.  c01_expr_eval uses Model/ExprEval.v binop_of_code for "the Value method the VM executes for a binary
   opcode".  That table is not an assumption: for every opcode in it, the dispatch case REGENERATED from the
   exec switch of /repo/do.go on every run (Gen/Steps_gen.v step_gen) pops the right operand b and the left
   operand a, applies exactly that method to (a, b) and pushes the result -- for every instruction, operand
   stack, frame and VM state.  The second theorem is the same for all sixteen two-operand opcodes incl. the
   comparisons (GT and GTE are LT and LTE with the operands swapped).  A change of one of these cases in
   do.go (say, computing a <= b as !(b < a), which differs on NaN) breaks these obligations. *)
Lemma if_eqb_Some {A} s n (x : A) rest y :
  (if String.eqb s n then Some x else rest) = Some y -> s = n /\ x = y \/ rest = Some y.
Proof. destruct (String.eqb_spec s n) as [->|_]; [intros [= <-]; left; split; reflexivity|right; assumption]. Qed.

Theorem c01_dispatch_from_source : forall code f, binop_of_code code = Some f ->
  forall i slots a b rest s, icode i = C code ->
  step_gen i slots (b :: a :: rest) s = Some (slift (f a b) s (fun r => SNext slots (r :: rest) s)).
Proof.
  intros code f H i slots a b rest s Hc.
  (* every entry of binop_of_code is an entry of vm_binops with the operands not swapped *)
  assert (Hin : exists g, In (code, false, g) vm_binops /\
                  f = match g with BRes g => g | BPlain g => fun x y => Ok (g x y) end).
  { unfold binop_of_code in H.
    repeat (apply if_eqb_Some in H; destruct H as [(-> & <-)|H];
            [eexists; split; [cbn [vm_binops In]; repeat (first [left; reflexivity|right])|reflexivity]|]).
    discriminate. }
  destruct Hin as (g & Hin & ->).
  rewrite (vm_binop_step code false g Hin i slots a b rest s Hc). destruct g; reflexivity.
Qed.
Print Assumptions c01_dispatch_from_source.

Theorem c01_vm_binop_from_source : forall name sw f, In (name, sw, f) vm_binops ->
  forall i slots a b rest s, icode i = C name ->
  step_gen i slots (b :: a :: rest) s = Some (binop_result sw f slots a b rest s).
Proof. exact vm_binop_step. Qed.
Print Assumptions c01_vm_binop_from_source.
