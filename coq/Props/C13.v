(* C13 -- strings are immutable UTF-8 byte sequences with Go's operations.
   A string is a byte list; Model/Str.v transcribes value.go (stringT, Value.convert),
   do.go (codeGet, codeLen, codeSlice, codeRange/codeIter, codeCopy) and token.go
   (Char, Unquote); comparison and concatenation are the generated Value_op* of
   Gen/ValueOps_gen.v; GoSpec/Utf8.v specifies Go's UTF-8 decoding and range statement.
   Ties: `harness c13-corr` (model vs implementation, spec vs the Go runtime) and
   `harness c13-script` (scripts vs the Go toolchain) on every run.
   [bytes s] = every element is in 0..255; [blen] = length as Z. *)
From Coq Require Import ZArith List Bool Sorted Lia.
From GV Require Import GoSpec.GoPrim GoSpec.Utf8 Gen.ValueOps_gen Model.Str Proofs.C13_utf8 Proofs.C13_str.
Import ListNotations.
Open Scope Z_scope.

(* the specification GoSpec/Utf8.v is coherent *)

(* decoding inverts encoding for EVERY Unicode scalar value, whatever follows *)
Theorem c13_utf8_decode_encode : forall r rest, valid_rune r ->
  decode_rune (utf8_encode r ++ rest)%list = (r, length (utf8_encode r)).
Proof. exact decode_encode_app. Qed.

(* decoding accepts only shortest-form encodings of scalar values: any other input
   (overlong, surrogate, > U+10FFFF, stray continuation, truncated) gives exactly (U+FFFD, 1) *)
Theorem c13_utf8_decode_canonical : forall s r w, bytes s -> s <> [] -> decode_rune s = (r, w) ->
  (r = RuneError /\ w = 1%nat) \/ (valid_rune r /\ firstn w s = utf8_encode r).
Proof. exact decode_canonical. Qed.

(* range: offsets strictly increasing and inside the string; widths in 1..4 and summing to the
   length; and the full characterisation: the first offset is 0, each rune is the decoding of the
   suffix at its offset, the next offset is offset + width, the last one ends at len(s) -- and
   go_range is the only list with that property *)
Theorem c13_utf8_range : forall s,
  StronglySorted Z.lt (map fst (go_range s)) /\
  Forall (fun p => 0 <= fst p < Z.of_nat (length s)) (go_range s) /\
  sum_nat (go_widths s) = length s /\ Forall (fun w => 1 <= w <= 4)%nat (go_widths s) /\
  range_chain s 0 (go_range s) /\ (forall l, range_chain s 0 l -> l = go_range s).
Proof.
  exact (fun s => conj (go_range_offsets_sorted s) (conj (go_range_offsets_bounds s)
        (conj (proj1 (go_widths_sum s)) (conj (proj2 (go_widths_sum s))
        (conj (go_range_chain s) (fun l H => range_chain_unique s 0 l H _ (go_range_chain s))))))).
Qed.

(* a single encoded rune ranges to itself at offset 0; []rune(string(rs)) = rs *)
Theorem c13_utf8_range_encode :
  (forall r, valid_rune r -> go_range (utf8_encode r) = [(0, r)]) /\
  (forall r, ~ valid_rune r -> go_range (utf8_encode r) = [(0, RuneError)]) /\
  (forall rs, Forall valid_rune rs -> go_runes (encode_runes rs) = rs).
Proof.
  exact (conj go_range_encode (conj (fun r H => eq_trans (f_equal go_range (encode_invalid r H)) eq_refl) go_runes_encode)).
Qed.

(* goatlang's string operations, on the model of Model/Str.v *)

(* s[k]: for any key value k (i = k.Int()): in range -> the i-th byte, tagged uint8 (3), through
   Value.Get and codeGet; out of range (negative included) -> run-time panic.  len(s) is the byte count. *)
Theorem c13_index : forall s k,
  (forall b, 0 <= Value_Int k -> nth_error s (Z.to_nat (Value_Int k)) = Some b ->
     Value_Get (fn_String s) k = Ok (mkValue 3 (Zn b) PNone, true) /\
     code_get (fn_String s) k = Ok (mkValue 3 (Zn b) PNone)) /\
  (0 <= Value_Int k < blen s -> exists b, nth_error s (Z.to_nat (Value_Int k)) = Some b) /\
  (~ (0 <= Value_Int k < blen s) ->
     Value_Get (fn_String s) k = Panic /\ code_get (fn_String s) k = Panic).
Proof.
  intros s k. unfold code_get, Value_Get. cbn [fn_String mkV vval Z.eqb]. unfold stringT_Get.
  split; [|split].
  - intros b H0 Hn. rewrite (go_index_in s _ b H0 Hn). split; reflexivity.
  - apply index_some.
  - intros H. rewrite (go_index_out s _ H). split; reflexivity.
Qed.

(* the index values hosts and scripts pass denote their integer *)
Theorem c13_index_keys : forall i, in_range I32 i = true ->
  Value_Int (fn_Int32 i) = i /\ Value_Int (fn_newUntypedInt i) = i /\ Value_Int (fn_Int i) = i.
Proof. intros i H. rewrite (int_val i H). repeat split; apply Value_Int_id, H. Qed.

Theorem c13_len : forall s, Value_Len (fn_String s) = Ok (blen s) /\
  (in_range I32 (blen s) = true -> code_len (fn_String s) = Ok (mkValue 23 (Zn (blen s)) PNone)).
Proof.
  intros s. split; [reflexivity|]. intros H. unfold code_len, Value_Len, stringT_Len.
  cbn [fn_String mkV vval payload_is_nil bind]. rewrite (int_val _ H). reflexivity.
Qed.

(* s[i:j]: cutting s = a ++ m ++ c at i = len a, j = len a + len m gives exactly m (every in-range
   pair of bounds is of this form); any other bounds panic; an omitted upper bound (nil) means len(s).
   The result is a new value: the operand s is an argument of a pure function and cannot change
   (re-read after every operation by the correspondence and by the differential). *)
Theorem c13_slice :
  (forall a m c : list Z, Value_Slice (fn_String (a ++ m ++ c)) (blen a) (blen a + blen m) = Ok (fn_String m)) /\
  (forall (s : list Z) i j, 0 <= i <= j -> j <= blen s ->
     exists a m c, s = (a ++ m ++ c)%list /\ blen a = i /\ blen m = j - i) /\
  (forall s i j, ~ (0 <= i <= j /\ j <= blen s) -> Value_Slice (fn_String s) i j = Panic) /\
  (forall (a m c : list Z) ka kb, Value_Int ka = blen a -> Value_Int kb = blen a + blen m -> vt kb <> 0 ->
     code_slice (fn_String (a ++ m ++ c)) ka kb = Ok (fn_String m)) /\
  (forall (a m : list Z) ka, Value_Int ka = blen a -> code_slice (fn_String (a ++ m)) ka fn_Nil = Ok (fn_String m)) /\
  (forall s ka kb, vt kb <> 0 -> ~ (0 <= Value_Int ka <= Value_Int kb /\ Value_Int kb <= blen s) ->
     code_slice (fn_String s) ka kb = Panic) /\
  (forall s ka, ~ (0 <= Value_Int ka <= blen s) -> code_slice (fn_String s) ka fn_Nil = Panic).
Proof.
  refine (conj slice_string_in (conj (@split3 Z) (conj slice_string_out (conj _ (conj _ (conj _ _)))))).
  - intros a m c ka kb Ha Hb Ht. rewrite code_slice_string, Ha, Hb, (proj2 (Z.eqb_neq _ TypeNil) Ht). apply slice_string_in.
  - intros a m ka Ha. rewrite code_slice_string, Ha, blen_app. rewrite <- (app_nil_r m) at 1. apply slice_string_in.
  - intros s ka kb Ht H. rewrite code_slice_string, (proj2 (Z.eqb_neq _ TypeNil) Ht). apply slice_string_out, H.
  - intros s ka H. rewrite code_slice_string. apply slice_string_out. intros [B _]. exact (H B).
Qed.

(* strings are immutable: Set on a string object panics *)
Theorem c13_immutable : forall s k x, Value_Set (fn_String s) k x = Panic.
Proof. reflexivity. Qed.

(* `for i, r := range s` (codeRange + codeIter driving stringT.Range's closure) visits exactly
   Go's (byte offset, rune) pairs, in order, then stops; both are tagged int32 (23) *)
Theorem c13_range : forall s,
  code_range_string s = map (fun p => (fn_Int (fst p), fn_Int32 (snd p))) (go_range s) /\
  snd (fst (iter_next (mkIter (map snd (go_range s)) (map fst (go_range s)) (length (go_range s))))) = false /\
  (forall p, in_range I32 (fst p) = true ->
     (fn_Int (fst p), fn_Int32 (snd p)) = (mkValue 23 (Zn (fst p)) PNone, mkValue 23 (Zn (snd p)) PNone)).
Proof.
  intros s. split; [|split].
  - unfold code_range_string, stringT_Range. pose proof (go_range_from_length (length s) 0 s).
    rewrite iter_all_at by (unfold go_range; lia). reflexivity.
  - unfold iter_next. cbn [it_r it_n]. rewrite map_length, Nat.leb_refl. reflexivity.
  - intros p H. rewrite (int_val _ H). reflexivity.
Qed.

(* conversions: []byte(s) has one uint8 element per byte; string([]byte(s)) = s; []byte(string(b)) = b;
   string(s) = s; string(r) of any numeric value (tags untyped 1, uint8 3, int8 19, uint32 7, int32 23)
   is the UTF-8 encoding of r, U+FFFD for non-scalar values; that string ranges back to r at offset 0 *)
Theorem c13_conv :
  (forall s, convert_to_slice (fn_String s) = Ok (fn_sliceType TypeUint8, map (fun b => mkValue 3 (Zn b) PNone) s)) /\
  (forall s, bytes s -> forall t l, convert_to_slice (fn_String s) = Ok (t, l) -> convert_data_to_string l = fn_String s) /\
  (forall b, bytes b -> convert_to_slice (convert_data_to_string (map fn_Byte b)) = Ok (fn_sliceType TypeUint8, map fn_Byte b)) /\
  (forall s, convert_to_string (fn_String s) = Ok (fn_String s)) /\
  (forall t r, Z.land t 3 <> 0 -> t <> 64 -> 0 <= t -> in_range I32 r = true ->
     convert_to_string (mkValue t (Zn r) PNone) = Ok (fn_String (utf8_encode r))) /\
  Forall (fun t => Z.land t 3 <> 0 /\ t <> 64 /\ 0 <= t) [1; 3; 19; 7; 23] /\
  (forall r, go_range (utf8_encode r) = [(0, if valid_runeb r then r else RuneError)]).
Proof.
  refine (conj to_bytes_string (conj _ (conj _ (conj (fun s => eq_refl) (conj (fun t r Hn Hs _ => conv_rune_string t r Hn Hs) (conj _ _)))))).
  - intros s Hb t l E. rewrite to_bytes_string in E. injection E as _ <-. exact (data_string_bytes s Hb).
  - intros b Hb. rewrite (data_string_bytes b Hb). reflexivity.
  - repeat constructor; discriminate.
  - intros r. destruct c13_utf8_range_encode as (A & B & _).
    destruct (valid_runeb r) eqn:V; [apply A|apply B]; rewrite <- valid_runeb_spec; congruence.
Qed.

(* copy(dst, s) writes the first min(len dst, len s) bytes of s over dst and keeps dst's length *)
Theorem c13_copy : forall dst s,
  code_copy_string dst (fn_String s) =
    Ok (map (fun b => mkValue 3 (Zn b) PNone) (firstn (length dst) s) ++ skipn (length s) dst)%list /\
  length (go_copy dst (map fn_Byte s)) = length dst.
Proof.
  intros dst s. split; [|apply copy_length]. unfold code_copy_string. rewrite to_bytes_string. cbn [bind snd].
  rewrite go_copy_eq, firstn_map, map_length. reflexivity.
Qed.

(* comparison: <, <=, ==, != on strings are decided by bytes_ltb / bytes_eqb; bytes_ltb is exactly the
   lexicographic order on bytes (proper prefix, or smaller byte at the first difference); it is a
   strict total order (irreflexive, transitive, exactly one of <, =, > holds); <= is "not >";
   == is equality of the byte sequences *)
Theorem c13_cmp :
  (forall s t, Value_opLt (fn_String s) (fn_String t) = Ok (fn_Bool (bytes_ltb s t)) /\
               Value_opLte (fn_String s) (fn_String t) = Ok (fn_Bool (bytes_leb s t)) /\
               Value_opEq (fn_String s) (fn_String t) = Ok (fn_Bool (bytes_eqb s t)) /\
               Value_opNeq (fn_String s) (fn_String t) = Ok (fn_Bool (negb (bytes_eqb s t)))) /\
  (forall s t, bytes_ltb s t = true <->
     exists p, (exists c t', s = p /\ t = (p ++ c :: t')%list) \/
               (exists a b s' t', s = (p ++ a :: s')%list /\ t = (p ++ b :: t')%list /\ a < b)) /\
  (forall s, bytes_ltb s s = false) /\
  (forall s t u, bytes_ltb s t = true -> bytes_ltb t u = true -> bytes_ltb s u = true) /\
  (forall s t, (bytes_ltb s t = true /\ bytes_eqb s t = false /\ bytes_ltb t s = false) \/
               (bytes_ltb s t = false /\ bytes_eqb s t = true /\ bytes_ltb t s = false) \/
               (bytes_ltb s t = false /\ bytes_eqb s t = false /\ bytes_ltb t s = true)) /\
  (forall s t, bytes_leb s t = negb (bytes_ltb t s)) /\
  (forall s t, bytes_eqb s t = true <-> s = t) /\
  (fn_Bool true = mkValue 32 (Zn 1) PNone /\ fn_Bool false = mkValue 32 (Zn 0) PNone).
Proof.
  exact (conj (fun s t => conj eq_refl (conj eq_refl (conj eq_refl eq_refl)))
        (conj bytes_ltb_lex (conj bytes_ltb_irrefl (conj bytes_ltb_trans
        (conj bytes_trichotomy (conj bytes_leb_not_gt (conj bytes_eqb_eq (conj eq_refl eq_refl)))))))).
Qed.

(* concatenation: s + t is a new string with the bytes of s followed by those of t *)
Theorem c13_concat : forall s t, Value_opAdd (fn_String s) (fn_String t) = Ok (fn_String (s ++ t)).
Proof. reflexivity. Qed.

(* literals: goatlang's own part is the glue around strconv.  For any behaviour of strconv.Unquote /
   strconv.UnquoteChar: a character literal q body q hands exactly body and quote '\'' (39) to
   UnquoteChar and pushes its value as an untyped constant (a dropped error gives 0); a string literal
   (quoted or raw) denotes exactly Unquote of its full text.  That Unquote/UnquoteChar give every
   spelling Go's meaning is covered by the differential (c13-script: every escape form). *)
Section C13Lit.
  Variable unquote : list Z -> option (list Z).
  Variable unquoteChar : list Z -> Z -> option (Z * bool * list Z).
  Theorem c13_lit :
    (forall body q1 q2, token_Char unquoteChar (q1 :: body ++ [q2]) =
       Ok (match unquoteChar body 39 with Some (v, _, _) => v | None => 0 end)) /\
    (forall body q1 q2 v m tl, unquoteChar body 39 = Some (v, m, tl) ->
       compile_char unquoteChar (q1 :: body ++ [q2]) = Ok (mkValue 1 (Zn v) PNone)) /\
    (forall text, compile_string unquote text =
       match unquote text with Some s => Ok (mkValue 64 (Zn 0) (PStr s)) | None => Panic end).
  Proof.
    split; [exact (char_glue unquoteChar)|]. split.
    - intros body q1 q2 v m tl H. unfold compile_char. rewrite char_glue, H. reflexivity.
    - intros text. unfold compile_string, token_Unquote. destruct (unquote text); reflexivity.
  Qed.
End C13Lit.

Print Assumptions c13_utf8_decode_encode.
Print Assumptions c13_utf8_decode_canonical.
Print Assumptions c13_utf8_range.
Print Assumptions c13_utf8_range_encode.
Print Assumptions c13_index.
Print Assumptions c13_index_keys.
Print Assumptions c13_len.
Print Assumptions c13_slice.
Print Assumptions c13_immutable.
Print Assumptions c13_range.
Print Assumptions c13_conv.
Print Assumptions c13_copy.
Print Assumptions c13_cmp.
Print Assumptions c13_concat.
Print Assumptions c13_lit.

(* non-vacuity: "h\xc3\xa9\xffz\xed\xa0\x80" -- ASCII, a 2-byte rune, a stray byte, a surrogate encoding *)
Example c13_witness :
  let s := [104; 195; 169; 255; 122; 237; 160; 128] in
  go_range s = [(0, 104); (1, 233); (3, 65533); (4, 122); (5, 65533); (6, 65533); (7, 65533)] /\
  code_get (fn_String s) (fn_Int32 2) = Ok (mkValue 3 (Zn 169) PNone) /\
  code_get (fn_String s) (fn_Int32 8) = Panic /\
  code_slice (fn_String s) (fn_newUntypedInt 1) (fn_newUntypedInt 3) = Ok (fn_String [195; 169]) /\
  code_slice (fn_String s) (fn_newUntypedInt 5) fn_Nil = Ok (fn_String [237; 160; 128]) /\
  code_slice (fn_String s) (fn_newUntypedInt 3) (fn_Int32 (-1)) = Panic /\
  convert_to_string (fn_Int32 233) = Ok (fn_String [195; 169]) /\
  Value_opLt (fn_String [195; 169]) (fn_String [122]) = Ok (fn_Bool false).
Proof. vm_compute. repeat split; reflexivity. Qed.

(* FINDING (open, reported by the differential group "rune-slice conversion"): conversions between
   strings and []rune are NOT Go's.  Value.convert has a single TypeSlice case (the element type of
   `[]T(s)` is dropped by compiler.go's convMap "[]") that always yields the BYTES of the string, and the
   TypeString case truncates every element of any slice to a byte.  Witness on the faithful model:
   string([]rune{233, 19990}) gives the two bytes E9 16 where Go gives the five bytes of "\195\169\228\184\150",
   whose runes are 233 and 19990.  c13_conv is therefore stated for []byte only. *)
Example c13_finding_rune_slice :
  convert_data_to_string [fn_Int32 233; fn_Int32 19990] = fn_String [233; 22] /\
  encode_runes [233; 19990] = [195; 169; 228; 184; 150] /\
  go_runes [195; 169; 228; 184; 150] = [233; 19990].
Proof. vm_compute. repeat split; reflexivity. Qed.
