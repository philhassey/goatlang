(* C08 -- names resolve by Go's lexical block scoping.
   Model/Lookup.v transcribes lookup.go (flat table with "~"-renaming) and the compiler's
   Begin / End / Shadow; its specification part is the textbook stack of blocks.  Tie:
   correspondence through hook VerifLookup on every run. *)
From Coq Require Import List String Bool PeanoNat.
From GV Require Import Model.Lookup Proofs.C08_lookup.
Import ListNotations.
Open Scope string_scope.

(* for every well-bracketed sequence of Begin / End / Declare / Resolve on valid names started inside a
   function body, at any nesting depth and in any order: every declaration gets the slot of a new variable
   (or the same one when redeclared in the same block), every name occurrence resolves to the innermost
   enclosing declaration -- shadowing inside the block, the outer binding again after the block ends,
   "not a local" (so: the global or import alias) when no enclosing block declares it *)
Theorem c08_refine : forall os, well_formed 1 os = true ->
  c_run (c_begin new_scope) os = s_run (s_begin s_new) os.
Proof. exact C08_lookup.c08_refine. Qed.
Print Assumptions c08_refine.

(* the renaming recursions never run out of budget: the recursive shadow/unshadow of lookup.go terminate *)
Theorem c08_budget : forall m k f, chain_fuel m <= f ->
  shadow f m k = shadow (chain_fuel m) m k /\ unshadow f m k = unshadow (chain_fuel m) m k.
Proof. intros m k f H. exact (conj (shadow_budget_any m k f H) (unshadow_budget_any m k f H)). Qed.
Print Assumptions c08_budget.

(* non-vacuity: two-level shadowing, where a ~~x key left behind by unshadow would resurrect x
   after the outermost block ends *)
Example c08_witness :
  let os := [SDeclare "x"; SBegin; SDeclare "x"; SBegin; SDeclare "x"; SResolve "x"; SEnd; SResolve "x"; SEnd;
             SResolve "x"; SEnd; SResolve "x"] in
  well_formed 1 os = true /\
  c_run (c_begin new_scope) os =
    [Some (Some 0); None; Some (Some 1); None; Some (Some 2); Some (Some 2); None; Some (Some 1); None;
     Some (Some 0); None; Some None].
Proof. vm_compute. split; reflexivity. Qed.
