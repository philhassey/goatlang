(* C11 -- slices alias, grow and copy as Go slices do.

   GoSpec/GoSlice.v      Go's slices: store of arrays, descriptors, index/set/reslice/append/copy/make
   GoSpec/GoSliceHist.v  the Go meaning of a history of slice statements over typed variables
                         (go_step_res / go_run; the capacity of a growing append is a free choice)
   Model/Slice.v         transcription of goatlang's slice layer (value.go sliceT & nil handling,
                         do.go NEWSLICE MAKE SLICE APPEND COPY GET SET LEN), tie: `harness c11-corr`
   Proofs/C11_slice.v    Inv (representation invariant), abs (abstraction to the Go-side state),
                         hist_ok / hist_typed (side conditions on a history), TInv (typing invariant)

   Scope of the universally quantified theorems: ALL histories over ANY pool of variables, EVERY
   capacity oracle, element types with a scalar tag ([scalar]: the numeric types, bool, string).
   Excluded by [op_nilsafe] and shown as a counterexample in Proofs (finding F1): append of no value
   to a nil Value.  Not covered: slices of reference types (their unwritten cells Value{} are not
   fixpoints of assign).

   How to read "as Go does" in the theorems below -- three limits of the comparison:
   - PANICS.  The result type `res` has a SINGLE constructor Panic (no message, no kind).  "Same panic"
     therefore means only: the model panics IF AND ONLY IF Go panics (and then neither changes the state);
     which run-time error it is (index out of range vs slice bounds out of range vs makeslice: len out of
     range) is not compared.
   - NIL vs EMPTY.  The abstraction `abs` maps a variable to (element type, descriptor): a nil Value AND a
     non-nil Value whose data is the nil descriptor are both Go's nil (gdata (GNil _) = SNil), and the
     refinement statements compare abstract states.  So whether `s == nil` holds after a history is NOT
     part of c11_refine (g_isnil is not in the abstract state); the one place where goatlang and Go are
     known to differ on it is finding F1 (op_nilsafe).
   - ELEMENT CONVERSION.  The Go-side history semantics (GoSpec/GoSliceHist.v) converts a stored value to
     the element type with assign_to t v := Value_assign v t -- the SAME generated function the model uses.
     The refinement therefore does not check the conversion itself (it is identical on both sides by
     construction); what Value_assign does is property C04 (c04_assign) and the first three conjuncts of
     c11_elemty. *)
From Coq Require Import ZArith List Bool Lia.
From GV Require Import GoSpec.GoPrim GoSpec.GoSlice GoSpec.GoSliceHist Gen.ValueOps_gen Model.Slice
  Proofs.C11_goslice Proofs.C11_slice.
Import ListNotations.
Open Scope Z_scope.

(* the invariant holds for a pool of nil variables and is kept by every statement *)
Theorem c11_inv :
  (forall n, Inv ([], repeat (GNil (fn_sliceType TypeInt32)) n)) /\
  (forall s o, Inv s -> op_wf (length (snd s)) o -> Inv (step s o) /\ length (snd (step s o)) = length (snd s)).
Proof. exact (conj inv_init inv_step). Qed.

(* REFINEMENT.  Every statement of every history does to the abstract state exactly what Go does
   (same result or same panic, for some capacity choice Go is free to make), hence whole histories
   do; reads, len and range return what Go's index / len / range return. *)
Theorem c11_refine :
  (forall s o, Inv s -> op_wf (length (snd s)) o -> op_nilsafe s o ->
     exists cap, abs_res (step_res s o) = go_step_res cap (abs s) o) /\
  (forall os s, Inv s -> hist_ok s os -> go_run (abs s) os (abs (run s os))) /\
  (forall st g k, Value_Get st g k = index st (gdata g) (Value_Int k)) /\
  (forall g, Value_Len g = slen (gdata g)) /\
  (forall st g, wf_slice st (gdata g) ->
     map snd (Value_Range st g) = cells st (gdata g) /\
     map fst (Value_Range st g) = map (fun n => fn_Int (Z.of_nat n)) (seq 0 (Value_Len g))) /\
  (forall st g n, range_next st g n =
     match index st (gdata g) (Z.of_nat n) with Ok v => Some (fn_Int (Z.of_nat n), v) | _ => None end).
Proof.
  exact (conj refine_step (conj refine_run (conj get_refines (conj Value_Len_data (conj range_refines range_next_refines))))).
Qed.

(* ALIASING.  h := g[i:j]; h[k] = v is seen as g[i+k] (nothing else of g changes), and
   g[i+k] = v is seen as h[k] *)
Theorem c11_alias :
  (forall st g i j h k v st' kk,
     wf_slice st (gdata g) -> Value_Slice g i j = Ok h -> Value_Set st h k v = Ok st' ->
     Value_Int kk = i + Value_Int k -> i + Value_Int k < Z.of_nat (Value_Len g) ->
     elemty h = elemty g /\
     Value_Get st' g kk = Ok (Value_assign v (elemty g)) /\
     (forall m, Value_Int m <> Value_Int kk -> Value_Get st' g m = Value_Get st g m)) /\
  (forall st g i j h k v st' kk,
     wf_slice st (gdata g) -> Value_Slice g i j = Ok h -> 0 <= Value_Int k < j - i ->
     Value_Int kk = i + Value_Int k -> Value_Set st g kk v = Ok st' ->
     Value_Get st' h k = Ok (Value_assign v (elemty g)) /\
     (forall m, Value_Int m <> Value_Int k -> Value_Get st' h m = Value_Get st h m)).
Proof.
  split; intros st g i j h k v st' kk W R; rewrite Value_Slice_data in R;
    (destruct (reslice (gdata g) i j) as [d'| |] eqn:Rd; try discriminate); injection R as <-.
  - intros S Ek Hk. rewrite Value_Set_data in S. rewrite Value_Len_data in Hk.
    destruct (sub_write_seen_by_parent st _ i j d' _ _ st' W Rd S Hk) as [A B].
    split; [reflexivity|]. rewrite get_refines, Ek. split; [exact A|].
    intros m Hm. rewrite !get_refines. apply B. lia.
  - intros Hk Ek S. rewrite Value_Set_data, Ek in S.
    destruct (parent_write_seen_by_sub st _ i j d' _ _ st' W Rd Hk S) as [A B].
    split; [exact A|]. intros m Hm. apply B, Hm.
Qed.

(* APPEND, for every growth oracle.  Within the capacity: same array and offset, exactly the cells
   after the old elements receive the converted values (so every slice covering them sees them).
   Beyond the capacity: a new array, no existing array changes, every existing slice keeps its
   elements, the result holds the old elements followed by the converted values. *)
Theorem c11_append : forall grow,
  (forall st t a o l c items,
     store_ok st -> wf_slice st (SMk a o l c) -> scalar t -> (l + length items <= c)%nat ->
     Value_Append grow st (GSl t (SMk a o l c)) items 0 =
       (arr_write st a (o + l) (map (assign_to t) items), GSl t (SMk a o (l + length items) c)) /\
     (forall b i, cell (arr_write st a (o + l) (map (assign_to t) items)) b i =
                  if (b =? a)%nat && ((o + l <=? i)%nat && (i <? o + l + length items)%nat)
                  then nth_error (map (assign_to t) items) (i - (o + l)) else cell st b i)) /\
  (forall st t d items,
     store_ok st -> wf_slice st d -> scalar t -> (scap d < slen d + length items)%nat ->
     let r := Value_Append grow st (GSl t d) items 0 in
     (forall b, (b < length st)%nat -> array (fst r) b = array st b) /\
     (forall s, wf_slice st s -> cells (fst r) s = cells st s) /\
     (exists c', snd r = GSl t (SMk (length st) 0 (slen d + length items) c') /\ (slen d + length items <= c')%nat) /\
     cells (fst r) (gdata (snd r)) = (cells st d ++ map (assign_to t) items)%list).
Proof.
  intros grow. split.
  - intros st t a o l c items Hs W S H. rewrite append_refines by assumption.
    rewrite append_in_place by (rewrite map_length; exact H).
    split; [rewrite map_length; reflexivity|]. intros b i. rewrite <- (map_length (assign_to t) items).
    apply cell_arr_write; [apply W|rewrite map_length; cbn [wf_slice] in W; lia].
  - intros st t d items Hs W S H r. subst r. rewrite append_refines by assumption. cbn [fst snd gdata].
    destruct (append_fresh nilV grow st d (map (assign_to t) items) W) as (c' & Hc & E & A);
      [rewrite map_length; exact H|].
    rewrite map_length in *. split; [exact A|]. split; [|split].
    + intros s Ws. destruct s as [|b o l c]; [reflexivity|]. cbn [cells]. rewrite A; [reflexivity|]. apply Ws.
    + exists c'. rewrite E. cbn [snd]. split; [reflexivity|exact Hc].
    + apply cells_append. exact W.
Qed.

(* COPY moves n = min(len(dst), len(src)) elements: the first n elements of dst become the first n
   source values as they were before the copy (overlapping ranges included); the count for a slice
   source is min of the two lengths, for a string source min with the number of bytes *)
Theorem c11_copy :
  (forall st a b, wf_slice st (gdata a) ->
     let n := Nat.min (Value_Len a) (length (csrc_vals st b)) in
     snd (code_copy st a b) = n /\
     cells (fst (code_copy st a b)) (gdata a) = (firstn n (csrc_vals st b) ++ skipn n (cells st (gdata a)))%list) /\
  (forall st g, wf_slice st (gdata g) -> length (csrc_vals st (CSlice g)) = Value_Len g) /\
  (forall st s, length (csrc_vals st (CStr s)) = length s).
Proof.
  repeat apply conj.
  - intros st a b W. cbn zeta. rewrite Value_Len_data. apply copy_vals_spec, W.
  - intros st g W. rewrite Value_Len_data. apply length_cells, W.
  - intros st s. apply map_length.
Qed.

(* BOUNDS.  Index and element write outside 0 <= k < len, slice bounds outside 0 <= i <= j <= cap
   (negative run-time operands included; omitted upper bound = len), negative make length: a panic,
   never a value; inside the bounds: never a panic.
   Conjunct 2 (a read inside the bounds yields a value) needs wf_slice: the cell must exist in the store.
   Conjunct 4 (a write inside the bounds does not panic) has NO wf_slice premise and needs none: `set`
   (GoSpec/GoSlice.v, shared by model and spec) decides by the descriptor's length alone, and writing
   through a descriptor that points outside the store is a silent no-op there, not a panic.  So for an
   ILL-FORMED descriptor conjunct 4 says less than it seems (Go would fault on the array access); such
   descriptors do not arise: Inv (c11_inv) keeps every variable's descriptor wf_slice. *)
Theorem c11_bounds :
  (forall st g k, ~ (0 <= Value_Int k < Z.of_nat (Value_Len g)) -> Value_Get st g k = Panic) /\
  (forall st g k, wf_slice st (gdata g) -> 0 <= Value_Int k < Z.of_nat (Value_Len g) -> exists v, Value_Get st g k = Ok v) /\
  (forall st g k v, ~ (0 <= Value_Int k < Z.of_nat (Value_Len g)) -> Value_Set st g k v = Panic) /\
  (forall st g k v, 0 <= Value_Int k < Z.of_nat (Value_Len g) -> exists st', Value_Set st g k v = Ok st') /\
  (forall g i j, ~ (0 <= i <= j /\ j <= Z.of_nat (gcapn g)) -> Value_Slice g i j = Panic) /\
  (forall g i j, 0 <= i <= j /\ j <= Z.of_nat (gcapn g) ->
     exists h, Value_Slice g i j = Ok h /\ Value_Len h = (Z.to_nat j - Z.to_nat i)%nat /\ elemty h = elemty g) /\
  (forall r a b,
     let i := Value_Int a in
     let j := if vt b =? TypeNil then Z.of_nat (Value_Len r) else Value_Int b in
     ~ (0 <= i <= j /\ j <= Z.of_nat (gcapn r)) -> code_slice r a b = Panic) /\
  (forall st t n, Value_Int n < 0 -> code_make st t n = Panic).
Proof.
  repeat apply conj.
  - intros st g k. rewrite get_refines, Value_Len_data. apply index_out.
  - intros st g k. rewrite get_refines, Value_Len_data. apply index_in.
  - intros st g k v. rewrite Value_Set_data, Value_Len_data. apply set_out.
  - intros st g k v. rewrite Value_Set_data, Value_Len_data. apply set_in.
  - exact slice_out.
  - intros g i j H. rewrite Value_Slice_data. destruct (reslice_in (gdata g) i j H) as (d' & -> & L & _).
    eexists. split; [reflexivity|]. split; [exact L|reflexivity].
  - intros r a b. apply slice_out.
  - intros st t n H. rewrite code_make_eq, make_negative by exact H. reflexivity.
Qed.

(* NIL.  A nil slice has length 0, ranges over nothing, cannot be indexed, copies nothing; APPEND
   on it allocates a new array holding the values converted to the DECLARED element type and
   touches nothing that existed; s[0:0] is the only slice expression in range. *)
Theorem c11_nil : forall t,
  (Value_Len (GNil t) = 0%nat /\ code_len (GNil t) = fn_Int 0) /\
  (forall st, Value_Range st (GNil t) = [] /\ forall n, range_next st (GNil t) n = None) /\
  (forall st k v, Value_Get st (GNil t) k = Panic /\ Value_Set st (GNil t) k v = Panic) /\
  (forall grow st items,
     code_append grow st (GNil t) items =
     ((st ++ [map (assign_to (Type_value t)) items])%list,
      GSl (Type_value t) (SMk (length st) 0 (length items) (length items)))) /\
  (forall i j, Value_Slice (GNil t) i j = if (i =? 0) && (j =? 0) then Ok (GSl (Type_value t) SNil) else Panic) /\
  (forall st b, code_copy st (GNil t) b = (st, 0%nat)) /\
  (forall t0, 0 <= t0 -> Type_value (fn_sliceType t0) = t0).
Proof.
  (* all but APPEND and the last are the GNil branches of the definitions *)
  intro t. repeat split; try reflexivity; [intros; apply nil_append | exact value_type_sliceType].
Qed.

(* ELEMENT TYPE.  What assign guarantees (C04): a value Go's type checker accepts for a []T -- a T,
   or an untyped constant when T is numeric -- is stored as a T; whatever is stored is never an
   untyped constant; stored values are fixpoints of assign.  Hence, after ANY history whose stored
   values are type-correct ([hist_typed]: literal elements, s[i] = v, append arguments, spread and
   copy sources of the same element type, string spreads and string copies into []uint8), every element of every
   variable has exactly the variable's element type or is a cell no statement wrote ([tcell];
   see finding F2); and after any history at all no element is an untyped constant. *)
Theorem c11_elemty :
  (forall t v, compat t v -> vt (Value_assign v t) = t) /\
  (forall t v, scalar t -> sok (Value_assign v t)) /\
  (forall t v, scalar t -> sok v -> Value_assign v t = v) /\
  (forall os s aty, Inv s -> TInv aty s -> hist_typed s os ->
     forall x, (x < length (snd (run s os)))%nat ->
     Forall (tcell (elemty (pget (snd (run s os)) x))) (cells (fst (run s os)) (gdata (pget (snd (run s os)) x)))) /\
  (forall os s, Inv s -> hist_ok s os ->
     forall x, Forall sok (cells (fst (run s os)) (gdata (pget (snd (run s os)) x)))) /\
  (forall n, TInv [] ([], repeat (GNil (fn_sliceType TypeInt32)) n)) /\
  (* append(bytes, "s"...) spreads the bytes of s as uint8 values, for every string *)
  (forall st s, spread_items st (SpStr s) = map fn_Byte s /\
                Forall (fun v => vt v = TypeUint8) (spread_items st (SpStr s))).
Proof.
  exact (conj assign_compat (conj assign_sok (conj sok_fix (conj elemty_run (conj stored_run
        (conj tinv_init spread_string_bytes)))))).
Qed.

Print Assumptions c11_inv.
Print Assumptions c11_refine.
Print Assumptions c11_alias.
Print Assumptions c11_append.
Print Assumptions c11_copy.
Print Assumptions c11_bounds.
Print Assumptions c11_nil.
Print Assumptions c11_elemty.

(* non-vacuity: a := []int{1,2,3,4}; b := a[1:3]; b[0] = 20 (seen through a); c := append(b, 99)
   (in place: a[3] = 99); d := append(a, 7) (new array, a untouched); copy(a[1:], a) (overlapping) *)
Example c11_witness :
  let i32 n := mkValue TypeInt32 (Zn n) PNone in
  let un n := mkValue untypedInt (Zn n) PNone in
  let nl := mkValue TypeNil (Zn 0) PNone in
  let s0 : state := ([], repeat (GNil (fn_sliceType TypeInt32)) 5) in
  let os := [OLit 0 TypeInt32 [un 1; un 2; un 3; un 4]; OSlice 1 0 (un 1) (un 3); OSet 1 (un 0) (un 20);
             OAppend 2 1 [un 99] SpN 8; OAppend 3 0 [un 7] SpN 8; OSlice 4 0 (un 1) nl; OCopy 4 0] in
  let s := run s0 os in
  cells (fst s) (gdata (pget (snd s) 0)) = [i32 1; i32 1; i32 20; i32 3] /\
  cells (fst s) (gdata (pget (snd s) 2)) = [i32 1; i32 20; i32 3] /\
  cells (fst s) (gdata (pget (snd s) 3)) = [i32 1; i32 20; i32 3; i32 99; i32 7] /\
  hist_ok s0 os /\ hist_typed s0 os.
Proof.
  vm_compute.
  repeat match goal with
  | |- _ /\ _ => split
  | |- True => exact I
  | |- Forall _ [] => constructor
  | |- Forall _ (_ :: _) => constructor
  | |- _ \/ _ => right; split; [reflexivity|right; left; reflexivity]
  | |- _ -> _ => intro; discriminate
  | |- le _ _ => repeat constructor
  | |- _ = _ => reflexivity
  end.
Qed.
