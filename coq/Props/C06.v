(* C06 -- break, continue and return always reach the target Go specifies.

   GoSpec/GoCtl.v : control skeletons (emit / if-else chains with init / for with any of init, cond,
     post / range / switch tagged or tagless, multi-value cases, default anywhere / break / continue /
     return) and Go's semantics as a fuelled big-step evaluator; every call result (conditions, range
     lengths, switch tags) comes from an arbitrary oracle that may depend on the whole history.
   Model/Ctl.v : transcription of compiler.go's cases "if", "switch", "for", "range", "break",
     "continue", "return", "block" (placeholders + rewriting loops, relative offsets, slot counter) and of
     do.go's JUMP, JUMPFALSE, JUMPTRUE, OR, RANGE, ITER, RETURN; one abstract instruction per real one
     (tie: Model/CorrC06.v against the real compiler and VM, optimizer off, on every run).
   Optimizer on is property C02. *)
From Coq Require Import ZArith List Bool.
From GV Require Import GoSpec.GoCtl Model.Ctl Proofs.C06_base Proofs.C06_ctl Proofs.C06_main Proofs.C06_wf.
Import ListNotations.
Open Scope Z_scope.

(* Main theorem.  For EVERY skeleton b (any nesting, any placement of break / continue / return; even
   ill-formed ones), EVERY oracle, every history tr0 and every content of the local slots: if Go's
   semantics finishes the function body normally with trace tr', the machine running compile_ctl b from
   pc 0 runs off the end of the code (Finished: the pc reached len code or beyond -- `len C <= pc`, not
   necessarily pc = len C) with trace tr' and an empty operand stack; if Go's semantics executes
   a return with trace tr', the machine executes a RETURN instruction with trace tr'.  The trace lists
   every emit, every condition evaluated, every range expression and every switch tag in order, so equal
   traces mean: every case, else branch and loop body ran exactly when Go runs it, and the oracle was
   consulted at the same points with the same history.
   The premise is that Go's evaluator TERMINATES within some fuel: when it diverges (exec_block = None for
   every fuel, e.g. `for {}`) the theorem says nothing about the machine (in particular not that it diverges
   too, nor that its trace prefixes agree).  A body that ends in Brk / Cont (not a valid Go function body)
   gets the conclusion True. *)
Theorem c06_skeleton : forall (orc : oracle) (b : block) (fuel : nat) (tr0 : trace) (s0 : nat -> sval)
                              (out : outcome) (tr' : trace),
  exec_block orc fuel b tr0 = Some (out, tr') ->
  match out with
  | Normal => exists mfuel, run orc mfuel (compile_ctl b) (mkCfg 0 tr0 [] s0) = Finished tr' []
  | Ret => exists mfuel p, run orc mfuel (compile_ctl b) (mkCfg 0 tr0 [] s0) = Ret_at p tr' []
  | Brk | Cont => True
  end.
Proof. exact skeleton_ok. Qed.
Print Assumptions c06_skeleton.

(* The generalised statement the induction goes through (statement level): a statement compiled at slot
   counter L and carried by any program C at any position p -- with its BREAK / CONTINUE placeholders
   rewritten by the enclosing constructs into jumps to bt / ct -- drives the machine, from any operand
   stack and slots, to: the end of its code (Normal), exactly bt (Brk), exactly ct (Cont), or a RETURN
   instruction (Ret); the operand stack is restored and slots below L are untouched. *)
Theorem c06_statement : forall (orc : oracle) (fuel : nat) (s : stmt) (tr : trace) (out : outcome) (tr' : trace),
  exec orc fuel s tr = Some (out, tr') ->
  forall (C : code) (p : Z) (L : nat) (bt ct : option Z) (stk : list sval) (sl : nat -> sval),
  0 <= p -> carries C p (compile L s) bt ct ->
  post_ok orc C p (p + len (compile L s)) tr stk sl L bt ct out tr'.
Proof. intros orc fuel s tr out tr' E C p L bt ct stk sl _. apply (proj1 (all_ok orc fuel) s tr out tr' E). Qed.
Print Assumptions c06_statement.

(* The rewriting loops: a block whose placeholders were rewritten by a loop / switch is carried with the
   targets that construct designates (rw_ok: the operand written at index n is target - position - 1, or
   the placeholder is left alone and keeps the outer target). *)
Theorem c06_rewrite : forall (c C : code) (p n0 : Z) (brk cnt : Z -> option Z) (bt ct bt' ct' : option Z),
  carries C p (rewrite brk cnt n0 c) bt ct ->
  rw_ok brk n0 p bt bt' -> rw_ok cnt n0 p ct ct' ->
  carries C p c bt' ct'.
Proof. exact carries_rewrite. Qed.
Print Assumptions c06_rewrite.

(* a skeleton the Go compiler accepts (break only inside for / range / switch, continue only inside a loop)
   leaves no placeholder opcode in the compiled function: each one is rewritten by its construct *)
Theorem c06_wf_no_placeholder : forall (b : block), wf_block false false b = true ->
  forall i, In i (compile_ctl b) -> i <> CBreak /\ i <> CContinue.
Proof.
  intros b W i Hi. destruct (proj1 (proj2 clean_all) b 0%nat false false W i Hi) as [B C].
  split; intros ->; [specialize (B eq_refl) | specialize (C eq_refl)]; discriminate.
Qed.
Print Assumptions c06_wf_no_placeholder.

(* switch cases never fall through, for the FIRST guard of the FIRST case: if that guard holds (tagless) / equals
   the tag (tagged) and Go runs that case's block to a normal end, the machine finishes with the same trace -- so
   no later guard, no other case and not the default contributed an event.  Both are instances of
   C06_main.switch_selected (the machine does what the block does that `select` picks), itself a corollary of
   c06_skeleton; any other case / guard is covered by those two, not by the statements here. *)
Theorem c06_no_fallthrough : forall (orc : oracle) g gs body cs dpos dflt fuel tr0 s0 tr',
  o_cond orc tr0 g = true ->
  exec_block orc fuel body (EvCond g :: tr0) = Some (Normal, tr') ->
  exists mf, run orc mf (compile_ctl (BCons (Switch None (CCons g gs body cs) dpos dflt) BNil)) (mkCfg 0 tr0 [] s0)
             = Finished tr' [].
Proof.
  intros orc g gs body cs dpos dflt fuel tr0 s0 tr' Hg E.
  apply (switch_selected orc None _ dpos dflt body (EvCond g :: tr0) fuel); [|exact E].
  cbn [select option_map]. rewrite eval_guards_cons, Hg. reflexivity.
Qed.
Print Assumptions c06_no_fallthrough.

Theorem c06_no_fallthrough_tagged : forall (orc : oracle) k g gs body cs dpos dflt fuel tr0 s0 tr',
  o_tag orc tr0 k = g ->
  exec_block orc fuel body (EvTag k :: tr0) = Some (Normal, tr') ->
  exists mf, run orc mf (compile_ctl (BCons (Switch (Some k) (CCons g gs body cs) dpos dflt) BNil)) (mkCfg 0 tr0 [] s0)
             = Finished tr' [].
Proof.
  intros orc k g gs body cs dpos dflt fuel tr0 s0 tr' Hg E.
  apply (switch_selected orc (Some k) _ dpos dflt body (EvTag k :: tr0) fuel); [|exact E].
  cbn [select option_map]. rewrite eval_guards_cons, Hg, Z.eqb_refl. reflexivity.
Qed.
Print Assumptions c06_no_fallthrough_tagged.

(* The default clause.  The position of the default clause does not influence the generated code: MODELLING
   ASSUMPTION, tied only by the instruction-for-instruction correspondence (Model/CorrC06.v).  The field dpos
   of Switch is read neither by GoSpec/GoCtl.v (exec) nor by Model/Ctl.v (compile), so an equation "the same
   for every dpos" holds by reflexivity and is NOT stated as a theorem.  What is proved about the default:
   compile places its block after the code of all cases (definition of compile, Model/Ctl.v) and the machine enters it when no guard of any case holds, wherever
   it is written -- the instance of switch_selected where `select` arrives at the default: no_match evaluates all guards of all cases top to
   bottom (Proofs/C06_main.v; None as soon as one holds) and gives the trace at which Go starts the default.
   That the default is NOT entered when some guard holds is again c06_skeleton (equal traces), and
   c06_no_fallthrough for the first guard. *)
Theorem c06_default_entered : forall (orc : oracle) tag cs dpos dflt fuel tr0 s0 tr2 tr',
  no_match orc (option_map (o_tag orc tr0) tag) cs (match tag with Some k => EvTag k :: tr0 | None => tr0 end) = Some tr2 ->
  exec_block orc fuel dflt tr2 = Some (Normal, tr') ->
  exists mf, run orc mf (compile_ctl (BCons (Switch tag cs dpos dflt) BNil)) (mkCfg 0 tr0 [] s0) = Finished tr' [].
Proof.
  intros orc tag cs dpos dflt fuel tr0 s0 tr2 tr' Hn E.
  exact (switch_selected orc tag cs dpos dflt dflt tr2 fuel tr0 s0 tr' (no_match_select orc _ _ _ _ _ Hn) E).
Qed.
Print Assumptions c06_default_entered.

(* non-vacuity: `for { switch { default: break }; emit(1); break }` emits 1 and ends (the break in the
   default leaves the switch only); with return instead of the last break the function returns *)
Definition any_oracle : oracle := mkOracle (fun _ _ => true) (fun _ _ => 2%nat) (fun _ _ => 0).
Example c06_witness :
  let b := blk [For None None None (blk [Switch None (css []) 0 (blk [Break]); Emit 1; Break])] in
  exec_block any_oracle 20 b [] = Some (Normal, [EvEmit 1]) /\
  run any_oracle 100 (compile_ctl b) (init_cfg) = Finished [EvEmit 1] [] /\
  compile_ctl b = [CJump 0; CPush 1; CGet FEmit; CCall 1 0; CJump 1; CJump (-6)].
Proof. vm_compute. repeat split. Qed.

(* continue inside a switch inside a range runs the next iteration; return inside nested loops leaves *)
Example c06_witness2 :
  let b := blk [Range 7 (blk [Switch (Some 3) (css [(0, [1], blk [Emit 1; Continue])]) 1 (blk [Emit 2]); Emit 3]);
                For (Some 4) (Some 5) (Some 6) (blk [For None None None (blk [Return])]); Emit 9] in
  exec_block any_oracle 50 b [] = Some (Ret, rev [EvRange 7; EvTag 3; EvEmit 1; EvTag 3; EvEmit 1; EvEmit 4; EvCond 5]) /\
  exists p, run any_oracle 200 (compile_ctl b) init_cfg = Ret_at p (rev [EvRange 7; EvTag 3; EvEmit 1; EvTag 3; EvEmit 1; EvEmit 4; EvCond 5]) [].
Proof. vm_compute. split; [reflexivity | eexists; reflexivity]. Qed.
