(* C20 -- run-time errors point at the failing line and the active call chain.
   Model/VM.v exec / call_fn transcribe the dispatch loop, call, callReady and mkFunc (backtrace push before
   the callee runs, pop on normal return only; RFail carries the position of the raising instruction: what
   VM.btErr prints as the first line; [bt] of the final state: what it prints as the following lines).
   Model/Backtrace.v gexec / gcall are exec / call_fn with a GHOST call chain: a parameter of the recursion
   (callee body: call instruction :: caller's chain), hence the list of active calls by construction, and a
   ghost record of the instruction at which the failure was raised.
   Ties: run-level correspondence c20-corr (real compiled code of generated fault programs; position of
   the failure AND the backtrace lines of the real error text compared with the model's RFail position, its
   final [bt] and the ghost chain); Gen/Tables_gen.v peephole_rules regenerated by go2v on every run. *)
From Coq Require Import ZArith List String Bool.
From GV Require Gen.Steps_gen.
From GV Require Import GoSpec.GoPrim Gen.ValueOps_gen Gen.Tables_gen Model.PeepTypes Model.VM Model.Peephole Model.Backtrace
  Proofs.C20_bt Proofs.C20_fuse.
Import ListNotations.
Open Scope Z_scope.

Section C20.
  (* every growth policy and every behaviour of objects outside the modelled fragment (maps, structs, host
     objects), as long as those objects do not write the VM's backtrace (they have no access to it) *)
  Variable grow : Z -> Z -> Z.
  Variable ext_get : st -> value -> value -> option (res value).
  Variable ext_set : st -> value -> value -> value -> option (res st).
  Variable ext_len : st -> value -> option Z.
  Variable ext_getattr : st -> value -> Z -> option (res (value * st)).
  Variable ext_setattr : st -> value -> Z -> value -> option (res st).
  Hypothesis ext_set_bt : forall s r k v s', ext_set s r k v = Some (Ok s') -> bt s' = bt s.
  Hypothesis ext_getattr_bt : forall s r a v s', ext_getattr s r a = Some (Ok (v, s')) -> bt s' = bt s.
  Hypothesis ext_setattr_bt : forall s r a v s', ext_setattr s r a v = Some (Ok s') -> bt s' = bt s.

  Notation step1 := (step1 grow ext_get ext_set ext_len ext_getattr ext_setattr).
  Notation exec := (exec grow ext_get ext_set ext_len ext_getattr ext_setattr).
  Notation call_fn := (call_fn grow ext_get ext_set ext_len ext_getattr ext_setattr).
  Notation gexec := (gexec grow ext_get ext_set ext_len ext_getattr ext_setattr).
  Notation gcall := (gcall grow ext_get ext_set ext_len ext_getattr ext_setattr).
  Notation grun := (grun grow ext_get ext_set ext_len ext_getattr ext_setattr).

  (* the ghost bookkeeping does not influence the machine: erasing it gives exec / call_fn *)
  Theorem c20_ghost_erase : forall fuel codes pc slots ops s chain,
    fst (gexec fuel codes pc slots ops s chain) = exec fuel codes pc slots ops s.
  Proof. exact (ghost_erase_exec grow ext_get ext_set ext_len ext_getattr ext_setattr). Qed.
  Theorem c20_ghost_erase_call : forall fuel pack fa xa xr ci ops s chain,
    fst (gcall fuel pack fa xa xr ci ops s chain) = call_fn fuel pack fa xa xr (ipos ci) ops s.
  Proof. exact (ghost_erase_call grow ext_get ext_set ext_len ext_getattr ext_setattr). Qed.

  (* for every fuel, code, program counter, frame and state whose backtrace lists the call instructions
     [chain] of the active calls: a normal end of the frame leaves the backtrace as it was; at a failure the
     backtrace is the list of positions of the call instructions active AT THE POINT OF FAILURE (the ghost
     chain, which extends [chain] by the calls entered since), innermost first *)
  Theorem c20_bt_inv : forall fuel codes pc slots ops s chain, bt s = map ipos chain ->
    forall r g, gexec fuel codes pc slots ops s chain = (r, g) ->
    match r with
    | RDone _ _ s' => bt s' = map ipos chain
    | RFail msg pos s' =>
        (exists inner, g_chain g = (inner ++ chain)%list) /\
        bt s' = map ipos (g_chain g)
    | _ => True
    end.
  Proof. exact (bt_inv_exec grow ext_get ext_set ext_len ext_getattr ext_setattr ext_set_bt ext_getattr_bt ext_setattr_bt). Qed.

  (* the same for one call: on normal return the backtrace equals the one before the call *)
  Theorem c20_bt_call : forall fuel pack fa xa xr ci ops s chain, bt s = map ipos chain ->
    forall r g, gcall fuel pack fa xa xr ci ops s chain = (r, g) ->
    match r with
    | COk _ s' => bt s' = bt s
    | CErr (RFail msg pos s') =>
        (exists inner, g_chain g = (inner ++ chain)%list) /\
        bt s' = map ipos (g_chain g)
    | _ => True
    end.
  Proof. exact (bt_inv_call grow ext_get ext_set ext_len ext_getattr ext_setattr ext_set_bt ext_getattr_bt ext_setattr_bt). Qed.

  (* the reported position is the position of the instruction at which the failure was raised, however
     many callers it travelled through ... *)
  Theorem c20_fail_pos : forall fuel codes pc slots ops s chain, bt s = map ipos chain ->
    forall msg pos s' g, gexec fuel codes pc slots ops s chain = (RFail msg pos s', g) ->
    exists i, g_at g = Some i /\ pos = ipos i.
  Proof. exact (fail_pos_ghost grow ext_get ext_set ext_len ext_getattr ext_setattr ext_set_bt ext_getattr_bt ext_setattr_bt). Qed.

  (* ... because: a failing instruction is reported with its own position, *)
  Theorem c20_fail_pos_direct : forall f codes pc slots ops s i msg s',
    znth codes pc = Some i -> step1 codes pc i slots ops s = SFail msg s' ->
    exec (S f) codes pc slots ops s = RFail msg (ipos i) s'.
  Proof. exact (fail_pos_direct grow ext_get ext_set ext_len ext_getattr ext_setattr). Qed.

  (* the caller's loop returns a failed call's result as it is, *)
  Theorem c20_fail_pos_propagates : forall f codes pc slots ops s i pack fa xa xr slots' ops' s' r,
    znth codes pc = Some i -> step1 codes pc i slots ops s = SCall pack fa xa xr slots' ops' s' ->
    call_fn f pack fa xa xr (ipos i) ops' s' = CErr r ->
    exec (S f) codes pc slots ops s = r.
  Proof. exact (fail_pos_propagates grow ext_get ext_set ext_len ext_getattr ext_setattr). Qed.

  (* and a call either raises at the call instruction itself (not a function, argument or result count) or
     hands up the very failure (message, position, state, ghost) of the body of THE FUNCTION STORED AT fa in the
     heap of the state in which the call was made (hget s fa = Some (HFunc .. body)), which ran from pc 0 with
     an empty operand stack, with the call instruction on top of the chain and, as its backtrace, the position
     of the call instruction pushed on a backtrace equal to the caller's at the time of the call.  (s1 is s
     possibly extended by the slice that packs variadic arguments; slots0 are the typed arguments followed by
     nil slots -- the statement does not spell these two out.) *)
  Theorem c20_fail_pos_through_call : forall fuel pack fa xa xr ci ops s chain msg pos s' g,
    gcall fuel pack fa xa xr ci ops s chain = (CErr (RFail msg pos s'), g) ->
    (g_chain g = chain /\ g_at g = Some ci /\ pos = ipos ci) \/
    (exists f' nargs nrets variadic vtype nslots types body slots0 s1,
        fuel = S f' /\ hget s fa = Some (HFunc nargs nrets variadic vtype nslots types body) /\ bt s1 = bt s /\
        gexec f' body 0 slots0 [] (push_bt s1 (ipos ci)) (ci :: chain) = (RFail msg pos s', g)).
  Proof. exact (fail_pos_through_call grow ext_get ext_set ext_len ext_getattr ext_setattr). Qed.

  (* the error text of a whole run (VM.run starts with an empty backtrace): first the position of the
     raising instruction, then the positions of the active call instructions, innermost first.
     err_trace (Model/Backtrace.v) is a LIST OF POSITIONS, an abstraction of what VM.btErr prints:
       err_trace pos bt = pos :: (the non-zero entries of bt).
     Differences from the real btErr that the theorem does not speak about: (1) btErr prints NO position on
     the first line when the raising instruction's Pos is zero (the synthetic CALL of VM.Func), err_trace lists
     the 0; (2) btErr reads the position from frame.Codes[frame.N] with N clamped to the last instruction when
     the frame ran off its end, whereas the model's RFail carries the position of the instruction whose step
     failed -- that the two coincide is checked by the correspondence c20-corr, not proved; (3) the message text
     and the rendering of a position (file:line:col via the key table) are not modelled. *)
  Theorem c20_error_text : forall fuel codes nslots s, bt s = [] ->
    forall msg pos s' g, grun fuel codes nslots s = (RFail msg pos s', g) ->
    Some (err_trace pos (bt s')) = ghost_trace g.
  Proof. exact (error_text grow ext_get ext_set ext_len ext_getattr ext_setattr ext_set_bt ext_getattr_bt ext_setattr_bt). Qed.

  (* optimizer: if the fused window sits on one line of one function, whatever the unfused window would
     report (failure or call of whichever instruction) and what the fused instruction reports are on the
     same line of the same function.
     same_line p q (Model/Backtrace.v) compares the LINE field and the FUNCTION-NAME field of the packed
     position only: it ignores the file index and the column, and both fields are 16 bits wide (line and
     function index are taken mod 65536 -- newPos clamps to 65535, so lines beyond that are all "65535").
     The statement is PER WINDOW AND PER STEP: one execution of the window from one frame state, compared
     with one execution of the fused instruction from the same state; that whole runs of the optimized and
     unoptimized program print the same lines is the correspondence's business (c20-corr) plus C02. *)
  Theorem c20_fuse_line : forall r, In r peephole_rules ->
    forall w, List.length w = rule_len r -> one_line w ->
    forall codes pc pc' slots ops s p q,
      window_report grow ext_get ext_set ext_len ext_getattr ext_setattr codes pc w slots ops s = Some p ->
      fused_report grow ext_get ext_set ext_len ext_getattr ext_setattr codes pc' r w slots ops s = Some q ->
      same_line p q.
  Proof.
    intros r Hr w Hl H1 codes pc pc' slots ops s p q Hp Hq.
    apply window_report_in in Hp as (i & Hi & ->). apply step_report_pos in Hq as ->.
    rewrite fuse_pos. apply H1; [exact Hi | now apply win_pos_in].
  Qed.
End C20.
Print Assumptions c20_ghost_erase.
Print Assumptions c20_ghost_erase_call.
Print Assumptions c20_bt_inv.
Print Assumptions c20_bt_call.
Print Assumptions c20_fail_pos.
Print Assumptions c20_fail_pos_direct.
Print Assumptions c20_fail_pos_propagates.
Print Assumptions c20_fail_pos_through_call.
Print Assumptions c20_error_text.
Print Assumptions c20_fuse_line.

(* the fused instruction carries the position of the window instruction the generated rule names, and on a
   one-line window every instruction of the window has that line *)
Theorem c20_fuse_pos : forall r w, ipos (fused r w) = ipos (win w (r_pos r)).
Proof. exact fuse_pos. Qed.
Print Assumptions c20_fuse_pos.
Theorem c20_fuse_line_static : forall r, In r peephole_rules ->
  forall w, List.length w = rule_len r -> one_line w ->
  forall k, (k < List.length w)%nat -> same_line (ipos (fused r w)) (ipos (win w k)).
Proof. intros r Hr w Hl H1 k Hk. rewrite fuse_pos. apply H1; [now apply win_pos_in | now apply nth_In]. Qed.
Print Assumptions c20_fuse_line_static.

(* every rule of the generated table keeps the position of the LAST instruction of its window *)
Theorem c20_fuse_pos_last : forall r, In r peephole_rules ->
  forall w, List.length w = rule_len r -> ipos (fused r w) = ipos (win w (pred (List.length w))).
Proof. exact fuse_pos_last. Qed.
Print Assumptions c20_fuse_pos_last.

(* ... and for every rule whose earlier window instructions are LOCALGET / GLOBALGET / CONST / PUSH (which
   neither fail nor call), every matching window -- written on however many lines -- and every frame state:
   what the unfused window reports, as failing position or as backtrace entry of a call, is exactly the position
   of the fused instruction (function, line and column).  Like c20_fuse_line this is a statement about ONE
   execution of ONE window from one frame state (window_report), not about whole runs; that the fused
   instruction then fails / calls exactly when the window does is C02 (c02_rules). *)
Theorem c20_fuse_same_report : forall grow ext_get ext_set ext_len ext_getattr ext_setattr,
  forall r, In r peephole_rules -> early_quiet r = true ->
  forall w, List.length w = rule_len r -> rule_matches r w = true ->
  forall codes pc slots ops s p,
    window_report grow ext_get ext_set ext_len ext_getattr ext_setattr codes pc w slots ops s = Some p ->
    p = ipos (fused r w).
Proof.
  intros grow ext_get ext_set ext_len ext_getattr ext_setattr r Hr Hq w Hl Hm codes pc slots ops s p Hp.
  rewrite (fuse_pos_last r Hr w Hl).
  eapply last_reports; [|exact Hp]. eapply early_quiet_window; eassumption.
Qed.
Print Assumptions c20_fuse_same_report.

(* the rules NOT covered by c20_fuse_same_report: those with an earlier window instruction that is not in the
   SYNTACTIC quiet list (LOCALGET / GLOBALGET / CONST / PUSH), listed as (fused opcode, [(index, opcode)]).
   The table is computed from the generated rules; what it means for each of the two entries:
   - LOCALINCDEC (LOCALGET; INCDEC; LOCALSET, i.e. x++ / x += c on a local) is listed ONLY because INCDEC is
     not in the syntactic quiet list.  In the model INCDEC never fails (Value_incDec never panics, whatever
     the operand -- there is no "non-numeric operand" failure), so the unfused window never reports anything
     and the rule is not loud at all: c20_fuse_localincdec_silent below.
   - FASTCALLATTR (LOCALGET; GETATTR; CALL, i.e. t.f(args)) is the only GENUINELY loud rule of the model: the
     GETATTR fails on a nil t.  For it c20_fuse_line gives the same line only when the window is on one
     line, and c20_fuse_early_failure_refuted shows that nothing more is true. *)
Theorem c20_fuse_early_loud_rules :
  map (fun r => (r_out r, early_loud r)) (filter (fun r => negb (early_quiet r)) peephole_rules) =
  [ ("codeLocalIncDec", [(1%nat, "codeIncDec")]); ("codeFastCallAttr", [(1%nat, "codeGetAttr")]) ]%string.
Proof. vm_compute. reflexivity. Qed.
Print Assumptions c20_fuse_early_loud_rules.

(* the LOCALINCDEC window never fails and never calls: for every matching window and every frame state there
   is no report, so (vacuously) nothing for the two optimizer modes to disagree about.  Together with
   c20_fuse_same_report: for every rule except FASTCALLATTR, whatever the unfused window reports is the
   position of the fused instruction. *)
Theorem c20_fuse_localincdec_silent : forall grow ext_get ext_set ext_len ext_getattr ext_setattr,
  forall r, In r peephole_rules -> r_out r = "codeLocalIncDec"%string ->
  forall w, List.length w = rule_len r -> rule_matches r w = true ->
  forall codes pc slots ops s,
    window_report grow ext_get ext_set ext_len ext_getattr ext_setattr codes pc w slots ops s = None.
Proof. exact localincdec_window_silent. Qed.
Print Assumptions c20_fuse_localincdec_silent.

(* ... and for FASTCALLATTR the unrestricted statement is FALSE: t.f( on line 5, the argument and ")" on line 6,
   attribute access on t panics: the unfused window reports the GETATTR's line 5, FASTCALLATTR the CALL's line 6 *)
Theorem c20_fuse_early_failure_refuted :
  exists r, first_match peephole_rules res_window = Some r /\ r_out r = "codeFastCallAttr"%string /\
  exists p q,
    window_report (fun _ n => n) no_get no_set no_len nil_getattr no_setattr [] 0 res_window [nilV] [] d21_state = Some p /\
    fused_report (fun _ n => n) no_get no_set no_len nil_getattr no_setattr [] 0 r res_window [nilV] [] d21_state = Some q /\
    line_of p = 5 /\ line_of q = 6.
Proof.
  eexists. split; [vm_compute; reflexivity|]. split; [reflexivity|].
  eexists. eexists. split; [vm_compute; reflexivity|]. split; [vm_compute; reflexivity|]. split; vm_compute; reflexivity.
Qed.
Print Assumptions c20_fuse_early_failure_refuted.

(* on whole runs: f() written with "f(" on line 5 and ")" on line 6, f failing on its
   line 2: both optimizer modes report the CALL's line 6 *)
Theorem c20_fuse_run_witness : d21_lines_off = Some [(1, 2); (2, 6)] /\ d21_lines_on = Some [(1, 2); (2, 6)].
Proof. split; vm_compute; reflexivity. Qed.
Print Assumptions c20_fuse_run_witness.

(* compile's stamping loop.  NOT the real compiler: `compile`, `origins` and `wf` here are a small SCHEMATIC
   compile function defined in Proofs/C20_fuse.v (a tree of nodes, each emitting fresh instructions and the
   results of its sub-nodes, followed by the loop `if Pos is zero then Pos = position of this node`).  For
   that function: every instruction of the compiled code of a syntax tree carries the position of the
   innermost node whose compile call emitted it (node positions non-zero, fresh instructions unstamped).
   The real compiler's stamping is checked STRUCTURALLY by the harness command c20-pos on every instruction
   of every generated program, optimizer off and on (no zero position; the file is the program's file; the
   function name is a declared one and the line lies inside that function's source range; (line, column) is
   the position of some node of goatlang's own syntax tree).  Which node EMITTED an instruction is not
   observable, so "innermost emitting node" is not compared instruction by instruction, and there is no
   proof about compiler.go's compile. *)
Theorem c20_stamp : forall t, wf t ->
  map ipos (compile t) = origins t /\ Forall (fun i => ipos i <> 0) (compile t).
Proof. exact stamp_innermost. Qed.
Print Assumptions c20_stamp.

(* The stamping LOOP itself is tied to the source: go2v translates the loop at the end of (compiler).compile
   into Gen/Steps_gen.v stamp_gen on every run, accepting only its exact shape (every instruction of res, in
   order, whose Pos is still zero gets newPos(tok); nothing but `return res` may follow), and the schematic
   compile function above stamps with exactly that function.  A change of the loop (e.g. a backwards scan
   that stops at the first stamped instruction) is a translator failure, i.e. a broken obligation. *)
Theorem c20_stamp_from_source : forall p res,
  Gen.Steps_gen.stamp_gen p res = stamp p res /\
  (p <> 0 -> Forall (fun i => ipos i <> 0) (Gen.Steps_gen.stamp_gen p res)) /\
  (forall k i, nth_error res k = Some i -> ipos i <> 0 -> nth_error (Gen.Steps_gen.stamp_gen p res) k = Some i) /\
  List.length (Gen.Steps_gen.stamp_gen p res) = List.length res.
Proof.
  intros p res. split; [reflexivity|]. unfold Gen.Steps_gen.stamp_gen. split; [|split].
  - intros Hp. apply Forall_forall. intros x Hx. apply in_map_iff in Hx. destruct Hx as (i & E & _). subst x.
    destruct (ipos i =? 0) eqn:Z0; [exact Hp | apply Z.eqb_neq in Z0; exact Z0].
  - intros k i Hk Hi. rewrite nth_error_map, Hk. cbn [option_map]. apply Z.eqb_neq in Hi. rewrite Hi. reflexivity.
  - apply map_length.
Qed.
Print Assumptions c20_stamp_from_source.

(* non-vacuity: a run that fails two calls deep: main (function 3) calls g (function 2) on line 9, g calls f
   on line 5, f divides by zero on line 2.  Error text: f:2, then g:5, then main:9; the ghost agrees. *)
Definition ex_code : list instr :=
  [ mkI c_Func (joinParams 0 0) 0 3 (mk_pos 0 1 1);
    mkI c_Push 1 0 0 (mk_pos 1 2 10); mkI c_Push 0 0 0 (mk_pos 1 2 14); mkI c_Div 0 0 0 (mk_pos 1 2 12);
    mkI c_GlobalFunc 0 0 0 (mk_pos 0 1 1);
    mkI c_Func (joinParams 0 0) 0 2 (mk_pos 0 4 1);
    mkI c_GlobalGet 0 0 0 (mk_pos 2 5 2); mkI c_Call 0 0 0 (mk_pos 2 5 4);
    mkI c_GlobalFunc 1 0 0 (mk_pos 0 4 1);
    mkI c_GlobalGet 1 0 0 (mk_pos 3 9 2); mkI c_Call 0 0 0 (mk_pos 3 9 4) ].
Example c20_nonvacuous :
  let '(r, g) := Backtrace.grun (fun _ n => n) no_get no_set no_len no_getattr no_setattr 100 ex_code 0 (mkSt [nilV; nilV] [] [] []) in
  option_map trace_lines (result_trace r) = Some [(1, 2); (2, 5); (3, 9)] /\
  option_map trace_lines (ghost_trace g) = Some [(1, 2); (2, 5); (3, 9)].
Proof. vm_compute. split; reflexivity. Qed.
