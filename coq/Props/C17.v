(* C17 -- reloading swaps code in place and keeps state.
   Model/Reload.v transcribes the top-level instructions GLOBALFUNC, GLOBALZERO, GLOBALSET,
   GLOBALSTRUCT, SETMETHOD of do.go and addMethod / syncFields / newMethod / structT.GetIndex of
   value.go (tie: c17-corr runs histories on the real VM; the instruction list of every Load is
   decompiled from the code the real compiler produced).

   S : sig     the names a package declares (types with fields, methods, functions, variables with or
               without initialiser), in the order treeSort gives the top-level code;
   beta v      the function and method bodies of version v: versions differ in bodies only;
   histories   any list of  Load v | store (capture a function value, a bound method, an instance, a
               scalar into a host slot, a global variable or an instance field) | call | identity test,
               from the empty VM, IN WHICH NO STEP FAILS: every theorem below has the premise
               run ... = Some (st, o); `run` is None as soon as one step panics in the model (a call of a
               non-function, a path through a nil receiver or a missing slot, a Load that finds a
               non-function in a function's name ...).  About histories with a failing step -- in particular
               about the state a failed Load leaves behind -- nothing is said.
               hist_ok: scripts and host never assign to the NAME of a declared
               function or type (not expressible in Go). *)
From Coq Require Import ZArith List Bool.
From GV Require Import Model.Reload Proofs.C17_reload Proofs.C17_hist Proofs.C17_idem Proofs.C17_closed.
Import ListNotations.
Open Scope Z_scope.

(* one function object per declared function / method, from its first Load on and for the rest of the
   history: its address never changes, distinct declarations have distinct objects, a bound method keeps
   receiver and target object, and the Values the host captured stay what they were.
   Consequence of conjunct 1 for globals: the global NAMED AFTER a declared function f (key KFunc f) holds
   the same function object for the rest of the history -- it never becomes nil again.  This is about the
   declared function NAMES only (protected by hist_ok); an ordinary variable into which a function value
   was copied may of course be overwritten by a later store. *)
Theorem c17_identity : forall S, wf_sig S -> forall beta,
  forall h1 h2 st1 o1 st2 o2, hist_ok S h1 -> hist_ok S h2 ->
    run (prog S beta) init_state h1 = Some (st1, o1) -> run (prog S beta) st1 h2 = Some (st2, o2) ->
    (forall k a, key_ok S k -> fn_addr st1 k = Some a -> fn_addr st2 k = Some a) /\
    (last_load h1 <> None -> forall k, key_ok S k -> exists a, fn_addr st1 k = Some a) /\
    (forall k k' a, key_ok S k -> key_ok S k' -> fn_addr st1 k = Some a -> fn_addr st1 k' = Some a -> k = k') /\
    (forall c r f, nth_error (funcs st1) c = Some (FBound r f) -> nth_error (funcs st2) c = Some (FBound r f)) /\
    (forall i v, nth_error (slots st1) i = Some v -> nth_error (slots st2) i = Some v).
Proof. exact identity. Qed.

(* after any history the object of every declared function / method holds the body of the version loaded last *)
Theorem c17_latest : forall S, wf_sig S -> forall beta,
  forall h st o v, hist_ok S h -> run (prog S beta) init_state h = Some (st, o) -> last_load h = Some v ->
    forall k a, key_ok S k -> fn_addr st k = Some a ->
      nth_error (funcs st) a = Some (FBody (body_of (beta v) k)).
Proof. exact latest. Qed.

(* a reference c taken at ANY earlier point of the history (state st1) -- the function value of k itself,
   wherever it was copied to, or a bound method made from k -- when called later (state st2) runs the body
   that the version loaded last gives k, on the receiver it was bound to *)
Theorem c17_latest_call : forall S, wf_sig S -> forall beta,
  forall h1 h2 st1 o1 st2 o2 v, hist_ok S h1 -> hist_ok S h2 ->
    run (prog S beta) init_state h1 = Some (st1, o1) -> run (prog S beta) st1 h2 = Some (st2, o2) ->
    last_load (h1 ++ h2) = Some v ->
    forall k c, key_ok S k ->
      (fn_addr st1 k = Some c -> call_obs st2 (VFunc c) = Some (OCall (body_of (beta v) k) None)) /\
      (forall r a, nth_error (funcs st1) c = Some (FBound r a) -> fn_addr st1 k = Some a ->
                   call_obs st2 (VFunc c) = Some (OCall (body_of (beta v) k) (Some r))).
Proof. exact latest_call. Qed.

(* there are no other function objects: EVERY successful call of ANY function value in a reachable state --
   whatever path, slot, variable or field it came from, whenever it was captured -- runs the body that the
   version loaded last gives some declared function or method k: c is k's own object, or a bound method on it *)
Theorem c17_any_call : forall S, wf_sig S -> forall beta,
  forall h st o v, hist_ok S h -> run (prog S beta) init_state h = Some (st, o) -> last_load h = Some v ->
    forall c ob, call_obs st (VFunc c) = Some ob ->
      exists k recv, key_ok S k /\ ob = OCall (body_of (beta v) k) recv /\
        ((recv = None /\ fn_addr st k = Some c) \/
         (exists r a, recv = Some r /\ nth_error (funcs st) c = Some (FBound r a) /\ fn_addr st k = Some a)).
Proof. exact any_call. Qed.

(* state across one Load, from ANY machine state st (no invariant, no reachability premise in any of the
   four conjuncts) on which the Load does not fail (exec_list ... = Some st'; from an arbitrary state it may
   fail, e.g. when the name of a function holds a number): `var n T` keeps a non-nil value; `var n = c`
   holds c; `var n = f` holds THE object of f (the one the global f holds after the Load); host slots and
   existing instances are untouched *)
Theorem c17_state : forall S B, wf_sig S ->
  (forall st st' n z, In (VZero n z) (svars S) -> exec_list st (version_of S B) = Some st' ->
     gget st' n = if is_nil (gget st n) then z else gget st n) /\
  (forall st st' n z, In (VSet n (EArg (AConst z))) (svars S) -> exec_list st (version_of S B) = Some st' ->
     gget st' n = VInt z) /\
  (forall st st' n f, In (VSet n (EArg (APath (PGlobal f)))) (svars S) -> In f (sfuncs S) ->
     exec_list st (version_of S B) = Some st' -> gget st' n = gget st' f /\ exists a, gget st' f = VFunc a) /\
  (forall st st', exec_list st (version_of S B) = Some st' ->
     slots st' = slots st /\ exists y, (insts st' = insts st ++ y)%list).
Proof.
  exact (fun S B WF => conj (state_zero S WF B) (conj (state_const S WF B) (conj (state_funcref S WF B) (state_objects S B)))).
Qed.

(* Load v; Load v is observationally equal to Load v, at any point of any history, for every later
   observation sequence (initialisers: constants and references to declared functions) *)
Theorem c17_idem : forall S beta, wf_sig S -> simple_init S ->
  forall h0 st o0 v h, hist_ok S h0 -> run (prog S beta) init_state h0 = Some (st, o0) ->
    run (prog S beta) st (HLoad v :: HLoad v :: h) = run (prog S beta) st (HLoad v :: h).
Proof. exact idem. Qed.

(* the invariant behind them: reachable states keep function objects of declared keys distinct and type
   objects in place *)
Theorem c17_invariant : forall S, wf_sig S -> forall beta,
  forall h st o, hist_ok S h -> run (prog S beta) init_state h = Some (st, o) -> Inv S st.
Proof. exact (fun S WF beta h st o OK R => proj1 (run_good S WF beta h init_state st o OK (inv_init S) R)). Qed.

Print Assumptions c17_identity.
Print Assumptions c17_latest.
Print Assumptions c17_latest_call.
Print Assumptions c17_any_call.
Print Assumptions c17_state.
Print Assumptions c17_idem.
Print Assumptions c17_invariant.

(* non-vacuity: a package with a struct type (fields 10, 11; method 20), functions 2 and 3, variables
   4 (var int), 5 (= 5), 6 (= function 2), 7 (var *T); two versions; a history that captures function 2
   and a bound method before the reload and calls them afterwards *)
Definition S0 : sig := mkSig [(1, [(10, VInt 0); (11, VNil)])] [(1, 20)] [2; 3]
                             [VZero 4 (VInt 0); VSet 5 (EArg (AConst 5)); VSet 6 (EArg (APath (PGlobal 2))); VZero 7 VNil].
Definition beta0 (v : nat) : bodies := mkBodies (fun n => Z.of_nat v * 100 + n) (fun _ m => Z.of_nat v * 100 + m).
Definition h0 : list hop :=
  [HLoad 1; HStore LSlot (EArg (APath (PGlobal 2))); HStore (LGlobal 7) (ENew 1 [(10, AConst 9)]);
   HStore LSlot (EArg (APath (PAttr (PGlobal 7) 20))); HStore (LGlobal 4) (EArg (AConst 42));
   HStore (LGlobal 5) (EArg (AConst 77)); HCall (PSlot 0); HCall (PSlot 1);
   HLoad 2; HCall (PSlot 0); HCall (PSlot 1); HCall (PGlobal 6); HSame (PSlot 0) (PGlobal 2)].

Example c17_witness :
  wf_sig S0 /\ simple_init S0 /\ hist_ok S0 h0 /\
  match run (prog S0 beta0) init_state h0 with
  | Some (st, obs) =>
      obs = [OCall 102 None; OCall 120 (Some 0%nat); OCall 202 None; OCall 220 (Some 0%nat); OCall 202 None; OSame true]
      /\ gget st 4 = VInt 42 /\ gget st 5 = VInt 5
  | None => False
  end.
Proof.
  split; [|split; [|split]].
  - split.
    + simpl. repeat constructor; simpl; intuition discriminate.
    + simpl. intros t m [E|[]]. inversion E. auto.
    + simpl. intros t fs [E|[]]. inversion E. subst. simpl. repeat constructor; simpl; intuition discriminate.
  - intros n e HI. simpl in HI. destruct HI as [E|[E|[E|[E|[]]]]]; inversion E; subst.
    + left. eauto.
    + right. exists 2. simpl. auto.
  - unfold h0. repeat constructor; simpl; unfold protected; simpl; intuition discriminate.
  - vm_compute. repeat split; reflexivity.
Qed.

(* outside the quantifier (a version that ADDS a field to a struct type): the model reproduces what
   c17-script group "evolve" observes on the real VM -- an instance made before the reload has its own
   copy of Fields without the new field, so reading the field falls through to the method table and
   panics (None), and SetIndex (intMap.Assign) drops the write; an instance made afterwards is fine *)
Example c17_evolve_witness :
  let v1 := [GlobalStruct 1 [(10, VInt 0)]; GlobalZero 7 VNil] in
  let v2 := [GlobalStruct 1 [(10, VInt 0); (12, VInt 0)]; GlobalZero 7 VNil; GlobalZero 8 VNil] in
  let prog := fun v : nat => match v with 1%nat => v1 | _ => v2 end in
  let h := [HLoad 1; HStore (LGlobal 7) (ENew 1 [(10, AConst 9)]); HLoad 2] in
  match run prog init_state h with
  | Some (st, _) =>
      eval_path st (PAttr (PGlobal 7) 10) = Some (st, VInt 9) /\
      eval_path st (PAttr (PGlobal 7) 12) = None /\
      (match run prog st [HStore (LField (PGlobal 7) 12) (EArg (AConst 4))] with
       | Some (st', _) => eval_path st' (PAttr (PGlobal 7) 12) = None
       | None => False end) /\
      (match run prog st [HStore (LGlobal 8) (ENew 1 [])] with
       | Some (st', _) => eval_path st' (PAttr (PGlobal 8) 12) = Some (st', VInt 0)
       | None => False end)
  | None => False
  end.
Proof. vm_compute. repeat split; reflexivity. Qed.

(* Tie to the source for the two variable instructions.
   Reload.v's GlobalZero / GlobalSet transcribe GLOBALZERO / GLOBALSET of do.go.  For these two opcodes the
   dispatch case is ALSO regenerated from do.go by go2v on every run (Gen/Steps_gen.v), and the theorems
   below are about that generated step: GLOBALZERO leaves the VM state exactly as it is when the variable
   already holds a non-nil value (whatever its dynamic type, whatever the declared type operand B) and
   otherwise stores the zero value of the declared type; GLOBALSET stores the operand, assigned the type of
   the variable's current value.  A change of either case in do.go (e.g. re-zeroing on some condition of
   the old value) breaks these theorems. *)
From Coq Require Import String.
From GV Require Import GoSpec.GoPrim Gen.ValueOps_gen Gen.Tables_gen Model.VM Gen.Steps_gen Proofs.C04_vm.
Open Scope string_scope.
Theorem c17_globalzero_from_source : forall i slots ops s g, icode i = C "codeGlobalZero" ->
  znth (globals s) (iA i) = Some g ->
  step_gen i slots ops s =
    Some (if Value_IsNil g then SNext slots ops (set_global s (iA i) (Value_assign (fn_newZero (iB i)) (vt g)))
          else SNext slots ops s).
Proof. exact vm_globalzero_step. Qed.
Print Assumptions c17_globalzero_from_source.

Theorem c17_globalset_from_source : forall i slots a rest s g, icode i = C "codeGlobalSet" ->
  znth (globals s) (iA i) = Some g ->
  step_gen i slots (a :: rest) s = Some (SNext slots rest (set_global s (iA i) (Value_assign a (vt g)))).
Proof. exact vm_globalset_step. Qed.
Print Assumptions c17_globalset_from_source.
