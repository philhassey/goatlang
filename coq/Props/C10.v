(* C10 -- script maps behave like Go maps under any history of operations.
   Model/OMap.v transcribes stringMap/numericMap of value.go (tie: correspondence
   through the host-side Value API on every run).  K = key type with a sound and
   complete boolean equality (byte strings, or the numeric payload). *)
From Coq Require Import String ZArith List Bool Permutation.
From GV Require Import Model.OMap Proofs.C10_omap.
From GV Require GoSpec.GoPrim Model.VM Gen.Tables_gen Gen.Steps_gen Proofs.Steps_agree.
Import ListNotations.

Section C10.
  Context {K V : Type} (keqb : K -> K -> bool) (keqb_spec : forall a b, keqb a b = true <-> a = b).
  Context (assignV : V -> Z -> V) (zeroV : Z -> V).

  (* lookups see the latest write; a missing key gives the zero value of the element type and ok = false;
     other keys are untouched; len counts live keys; values are converted to the element type.
     Conjuncts 1-5 hold for EVERY map record (no invariant needed: get / set / delete work on the data list
     only); conjunct 6 (len after delete) needs Inv, namely that the data list has no duplicate key. *)
  Theorem c10_refine :
    (forall m k v, get keqb zeroV (set keqb assignV m k v) k = (assignV v (vtype m), true)) /\
    (forall m k k' v, k' <> k -> get keqb zeroV (set keqb assignV m k v) k' = get keqb zeroV m k') /\
    (forall (m : @omap K V) k order, get keqb zeroV (delete keqb m k order) k = (zeroV (vtype m), false)) /\
    (forall (m : @omap K V) k k' order, k' <> k -> get keqb zeroV (delete keqb m k order) k' = get keqb zeroV m k') /\
    (forall m k v, len (set keqb assignV m k v) = if mem keqb k (data m) then len m else S (len m)) /\
    (forall (m : @omap K V) k order, Inv keqb m -> len (delete keqb m k order) = if mem keqb k (data m) then len m - 1 else len m).
  Proof.
    exact (conj (get_set_same keqb keqb_spec assignV zeroV) (conj (get_set_other keqb keqb_spec assignV zeroV)
          (conj (get_delete_same keqb zeroV) (conj (get_delete_other keqb keqb_spec zeroV)
          (conj (len_set keqb assignV) (len_delete keqb keqb_spec)))))).
  Qed.

  (* the representation invariant -- every live key is listed exactly once -- holds for literals and is
     preserved by every operation, whatever order maps.Keys returns at a compaction *)
  Theorem c10_inv :
    (forall vt ps, NoDup (map fst ps) -> Inv keqb (new_map keqb assignV vt ps)) /\
    (forall os m, Inv keqb m -> ops_ok keqb assignV m os -> Inv keqb (apply_all keqb assignV m os)).
  Proof. exact (conj (inv_new keqb keqb_spec assignV) (inv_apply_all keqb keqb_spec assignV)). Qed.

  (* Go's range contract, for ANY loop body performing any map operations between visits (no premise on the
     body), over the snapshot keys m taken when the loop starts, with fuel S (length (keys m)) (always
     enough: each visit shortens the snapshot):
       1. each key is visited at most once;
       2. a key live in EVERY state of the loop is visited;
       3. a visited key is live in SOME state of the loop -- this conjunct alone is weak (it does not say
          WHICH state); the sharp form "the i-th visited key is live in the i-th state, i.e. at the moment
          it is visited" is c10_range_live below;
       4. nothing outside the start snapshot is visited (a key first inserted during the loop is never
          visited, Go allows either; one that was deleted but is still listed and is inserted again during
          the loop is visited: key 3 in Witness/NV_C14C10.v). *)
  Theorem c10_range : forall m body, Inv keqb m ->
    let fuel := S (length (keys m)) in
    let vs := fst (range_loop keqb assignV fuel m (keys m) body) in
    NoDup vs /\
    (forall k, (forall s, In s (states keqb assignV fuel m (keys m) body) -> live keqb s k) -> In k vs) /\
    (forall k, In k vs -> exists s, In s (states keqb assignV fuel m (keys m) body) /\ live keqb s k) /\
    (forall k, In k vs -> In k (keys m)).
  Proof.
    intros m body (Hk & _ & Hl) fuel vs.
    split; [apply range_loop_NoDup; exact Hk|].
    split; [|split; [apply range_loop_live | apply range_loop_In]].
    intros k Hlive. apply range_loop_complete; [apply PeanoNat.Nat.lt_succ_diag_r | | exact Hlive].
    apply Hl, Hlive, states_head.
  Qed.

  (* never a deleted key: the i-th visited key is live in the i-th state of the loop (the state in which it
     is visited), for any fuel, snapshot r and body *)
  Theorem c10_range_live : forall fuel m r body vs mf,
    range_loop keqb assignV fuel m r body = (vs, mf) ->
    Forall2 (fun k s => live keqb s k) vs (firstn (length vs) (states keqb assignV fuel m r body)).
  Proof.
    intros fuel m r body vs mf E.
    pose proof (range_visits_live keqb assignV fuel m r body) as L. rewrite E in L. exact L.
  Qed.
End C10.
Print Assumptions c10_refine.
Print Assumptions c10_inv.
Print Assumptions c10_range.
Print Assumptions c10_range_live.

(* non-vacuity, on the history where a duplicate would show (delete, then re-insert before any
   compaction, so the key is still listed): the key is visited once *)
Example c10_witness :
  let m0 := new_map Z.eqb (fun v _ => v) 0%Z [(1%Z, 10%Z); (2%Z, 20%Z); (3%Z, 30%Z)] in
  let m1 := set Z.eqb (fun v _ => v) (delete Z.eqb m0 1%Z []) 1%Z 50%Z in
  fst (range Z.eqb (fun v _ => v) m1 (fun _ => [])) = [1%Z; 2%Z; 3%Z] /\ len m1 = 3.
Proof. vm_compute. split; reflexivity. Qed.

(* The instructions that reach the map: GET, SET and the peephole-fused FASTGET / FASTSET / FASTGETINT /
   FASTSETINT.  The dispatch cases of do.go are translated by tools/go2v on every run (Gen/Steps_gen.v
   step_gen_obj; Value.Get / Value.Set themselves are obj_get / obj_set of Model/VM.v, whose map part is the
   oracle ext_get / ext_set that Model/OMap.v instantiates and the correspondence ties to value.go):
   every one of the six cases does exactly one Get (one Set) on the operand the plain form would use and pushes
   its result (a fast path added around the call -- the C10-5 seeded change -- is a translation failure, i.e.
   a broken obligation), and all six cases are in the translated set. *)
Theorem c10_get_set_from_source : forall grow ext_get ext_set ext_len ext_getattr ext_setattr codes pc i slots ops s r,
  Steps_gen.step_gen_obj ext_get ext_set i slots ops s = Some r ->
  Steps_agree.sres_same r (VM.step1 grow ext_get ext_set ext_len ext_getattr ext_setattr codes pc i slots ops s).
Proof. exact Steps_agree.steps_agree_obj. Qed.
Print Assumptions c10_get_set_from_source.
Theorem c10_get_set_cover : forall name,
  In name ["codeGet"; "codeSet"; "codeFastGet"; "codeFastSet"; "codeFastGetInt"; "codeFastSetInt"]%string ->
  In name Steps_gen.step_gen_obj_opcodes /\
  forall ext_get ext_set i slots ops s, VM.icode i = VM.C name -> Steps_gen.step_gen_obj ext_get ext_set i slots ops s <> None.
Proof. exact Steps_agree.steps_cover_obj. Qed.
Print Assumptions c10_get_set_cover.
