(* non-vacuity witnesses for Props/C15.v: Section variables imports / universe / top and Hypothesis universe_ok *)
From Coq Require Import List String Bool PeanoNat Lia.
From GV Require Import Model.Loader Proofs.C15_loader.
From GV Require Props.C15.
Import ListNotations.
Open Scope string_scope.

(* a diamond with a duplicate import, a native package, a package unreachable from main that imports main, and (gcyc) a
   3-cycle below main *)
Definition gacy : list (string * list string) :=
  [("main", ["b"; "a"; "b"; "fmt"]); ("b", ["a"; "c"]); ("a", ["c"; "strings"]); ("c", []); ("tool", ["main"; "zzz"])].
Definition gcyc : list (string * list string) :=
  [("main", ["x"; "fmt"]); ("x", ["y"]); ("y", ["z"; "fmt"]); ("z", ["x"])].
Definition U (g : list (string * list string)) := "main" :: C15.mentioned g.
Lemma U_ok g : forall p, reach (C15.graph_of g) "main" p -> In p (U g).
Proof. exact (C15.c15_premise_satisfiable g "main"). Qed.

(* c15_terminates + c15_order + c15_acyclic on gacy; the budget the theorems ask for is the concrete number 43 *)
Lemma nv_c15_acyclic :
  budget (C15.graph_of gacy) (U gacy) = 43 /\
  load (C15.graph_of gacy) 43 "main" = LoadOk ["c"; "fmt"; "strings"; "a"; "b"; "main"] /\
  valid_order (C15.graph_of gacy) "main" ["c"; "fmt"; "strings"; "a"; "b"; "main"] /\
  ~ cyclic (C15.graph_of gacy) "main" /\
  (exists l, load (C15.graph_of gacy) 43 "main" = LoadOk l) /\
  load (C15.graph_of gacy) 43 "main" <> LoadFuel /\
  (* a budget of 9 does run out (10 does not: the 43 the theorems ask for is not tight) *)
  load (C15.graph_of gacy) 9 "main" = LoadFuel.
Proof.
  assert (B : budget (C15.graph_of gacy) (U gacy) <= 43) by (vm_compute; lia).
  assert (L : load (C15.graph_of gacy) 43 "main" = LoadOk ["c"; "fmt"; "strings"; "a"; "b"; "main"]) by (vm_compute; reflexivity).
  assert (NC : ~ cyclic (C15.graph_of gacy) "main").
  { intro Cy. pose proof (C15.c15_cycle _ _ _ (U_ok gacy) 43 B Cy) as E. rewrite L in E. discriminate. }
  split; [vm_compute; reflexivity|]. split; [exact L|].
  split; [exact (C15.c15_order _ _ _ (U_ok gacy) 43 _ B L)|]. split; [exact NC|].
  split; [exact (C15.c15_acyclic _ _ _ (U_ok gacy) 43 B NC)|].
  split; [exact (C15.c15_terminates _ _ _ (U_ok gacy) 43 B)|vm_compute; reflexivity].
Qed.
(* c15_cycle on gcyc: premise `cyclic` proved from the definition (x -> y -> z -> x, reachable from main) *)
Lemma nv_c15_cycle : cyclic (C15.graph_of gcyc) "main" /\ load (C15.graph_of gcyc) 25 "main" = LoadCycle.
Proof.
  assert (Cy : cyclic (C15.graph_of gcyc) "main").
  { exists "x". split.
    - apply (reach_step _ _ "main" "x"); [apply reach_top|]. apply edge_olist. left. reflexivity.
    - exists ["y"; "z"; "x"]. split; [discriminate|]. split; [reflexivity|].
      repeat split; apply edge_olist; left; reflexivity. }
  split; [exact Cy|]. apply (C15.c15_cycle _ _ _ (U_ok gcyc) 25); [vm_compute; lia|exact Cy].
Qed.
