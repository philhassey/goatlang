(* NV_C17 -- the theorems of Props/C17.v (reloading swaps code in place and keeps state) on concrete data.

   Premises of the C17 theorems (unfolded):
     wf_sig S      NoDup (type names ++ function names ++ variable names); every method belongs to a declared
                   type; no struct type lists a field twice.
     hist_ok S h   Forall hop_ok: the ONLY thing excluded is  HStore (LGlobal n) _  with n a declared TYPE name or a
                   declared FUNCTION name (protected).  Stores to variables (also those that hold a function value),
                   to undeclared globals, to instance fields, to host slots are all allowed.
     key_ok S k    k = KFunc n with n in sfuncs S, or k = KMeth t m with (t,m) in smethods S.
     simple_init S every `var n = e` has e a constant or the name of a declared function.
     Inv S st      declared keys with an address point at FBody objects; distinct keys distinct addresses; declared
                   type names holding a VType point into the type heap, injectively.
     run .. = Some every step of the history succeeded (no panic, no HSame on nil/int values).
   The Props statements carry no Section hypotheses other than wf_sig (WF) and simple_init (SI).

   Part A instantiates every theorem on S0 / beta0 of Props/C17.v with h0 split as h1 ++ h2 (h2 starts with the
   reload) and DERIVES concrete facts through the theorems.  In that run the only bound method is FBound 0 0
   (receiver address = target address), so Part B repeats the exercise on a richer signature S1 (two types, three
   methods, the same method name on two types) with a run in which receivers and targets differ, a variable that
   held function 2 is overwritten with function 3, a variable is set back to nil, a bound method and a function
   value are stored into instance fields, and TWO reloads (3 then 2) follow.
   Part C documents when `run` is None and what hist_ok allows / excludes. *)
From Coq Require Import ZArith List Bool Lia.
From GV Require Import Model.Reload Proofs.C17_base Proofs.C17_reload Proofs.C17_hist Proofs.C17_idem Proofs.C17_closed.
From GV Require Import Props.C17.
Import ListNotations.
Open Scope Z_scope.

Definition st_of (r : option (state * list obs)) : state := match r with Some (s, _) => s | None => init_state end.
Definition ob_of (r : option (state * list obs)) : list obs := match r with Some (_, o) => o | None => [] end.
Definition sto (r : option state) : state := match r with Some s => s | None => init_state end.

(* Part A: S0, beta0 (bodies differ per version: v*100+n), h0 = h1 ++ h2 *)
Definition h1 : list hop :=
  [HLoad 1; HStore LSlot (EArg (APath (PGlobal 2))); HStore (LGlobal 7) (ENew 1 [(10, AConst 9)]);
   HStore LSlot (EArg (APath (PAttr (PGlobal 7) 20))); HStore (LGlobal 4) (EArg (AConst 42));
   HStore (LGlobal 5) (EArg (AConst 77)); HCall (PSlot 0); HCall (PSlot 1)].
Definition h2 : list hop :=
  [HLoad 2; HCall (PSlot 0); HCall (PSlot 1); HCall (PGlobal 6); HSame (PSlot 0) (PGlobal 2)].

Lemma h0_split : h0 = (h1 ++ h2)%list. Proof. reflexivity. Qed.

(* the concrete states (computed once, kept as closed terms) *)
Definition st1 : state := Eval vm_compute in st_of (run (prog S0 beta0) init_state h1).
Definition o1 : list obs := Eval vm_compute in ob_of (run (prog S0 beta0) init_state h1).
Definition st2 : state := Eval vm_compute in st_of (run (prog S0 beta0) st1 h2).
Definition o2 : list obs := Eval vm_compute in ob_of (run (prog S0 beta0) st1 h2).

Lemma WF0 : wf_sig S0. Proof. destruct c17_witness as (H & _). exact H. Qed.
Lemma SI0 : simple_init S0. Proof. destruct c17_witness as (_ & H & _). exact H. Qed.
Lemma OK0 : hist_ok S0 h0. Proof. destruct c17_witness as (_ & _ & H & _). exact H. Qed.
Lemma OK1 : hist_ok S0 h1.
Proof. pose proof OK0 as H. rewrite h0_split in H. apply Forall_app in H. tauto. Qed.
Lemma OK2 : hist_ok S0 h2.
Proof. pose proof OK0 as H. rewrite h0_split in H. apply Forall_app in H. tauto. Qed.

Lemma R1 : run (prog S0 beta0) init_state h1 = Some (st1, o1). Proof. vm_compute. reflexivity. Qed.
Lemma R2 : run (prog S0 beta0) st1 h2 = Some (st2, o2). Proof. vm_compute. reflexivity. Qed.
Lemma R0 : run (prog S0 beta0) init_state h0 = Some (st2, (o1 ++ o2)%list). Proof. vm_compute. reflexivity. Qed.
Lemma LL0 : last_load h0 = Some 2%nat. Proof. reflexivity. Qed.
Lemma LL12 : last_load (h1 ++ h2) = Some 2%nat. Proof. reflexivity. Qed.

(* the observations differ before / after the reload: the run is not a degenerate one *)
Lemma nv_run_obs : o1 = [OCall 102 None; OCall 120 (Some 0%nat)] /\
                   o2 = [OCall 202 None; OCall 220 (Some 0%nat); OCall 202 None; OSame true] /\
                   st1 <> init_state /\ st1 <> st2.
Proof. repeat split; try reflexivity; intro H; discriminate H. Qed.

(* bodies really differ between the versions: beta need not be constant *)
Lemma nv_beta_differs : forall k, key_ok S0 k -> body_of (beta0 1) k <> body_of (beta0 2) k.
Proof.
  intros [n|t m]; simpl; intros H.
  - destruct H as [<-|[<-|[]]]; discriminate.
  - destruct H as [E|[]]. inversion E. discriminate.
Qed.

Lemma KO_f2 : key_ok S0 (KFunc 2). Proof. simpl. auto. Qed.
Lemma KO_f3 : key_ok S0 (KFunc 3). Proof. simpl. auto. Qed.
Lemma KO_m : key_ok S0 (KMeth 1 20). Proof. simpl. auto. Qed.

(* every declared key of S0 *)
Lemma key_ok_S0 : forall k, key_ok S0 k -> k = KFunc 2 \/ k = KFunc 3 \/ k = KMeth 1 20.
Proof.
  intros [n|t m]; simpl; intros H.
  - destruct H as [<-|[<-|[]]]; auto.
  - destruct H as [E|[]]. inversion E. auto.
Qed.

(* c17_identity: all five conjuncts, premises met by the run *)
Lemma nv_c17_identity :
  (* 1: the addresses of the three declared keys after the reload are those before it *)
  (fn_addr st2 (KFunc 2) = Some 1%nat /\ fn_addr st2 (KFunc 3) = Some 2%nat /\ fn_addr st2 (KMeth 1 20) = Some 0%nat) /\
  (* 2: after h1 (which contains a Load) every declared key has an object *)
  (forall k, key_ok S0 k -> exists a, fn_addr st1 k = Some a) /\
  (* 3: injectivity, used to refute a collision *)
  (forall k, key_ok S0 k -> fn_addr st1 k = Some 1%nat -> k = KFunc 2) /\
  (* 4: the bound method captured before the reload (object 3) is still the same bound method *)
  nth_error (funcs st2) 3 = Some (FBound 0%nat 0%nat) /\
  (* 5: the two host slots are kept *)
  (nth_error (slots st2) 0 = Some (VFunc 1%nat) /\ nth_error (slots st2) 1 = Some (VFunc 3%nat)).
Proof.
  destruct (c17_identity S0 WF0 beta0 h1 h2 st1 o1 st2 o2 OK1 OK2 R1 R2) as (A & B & C & D & E).
  split; [|split; [|split; [|split]]].
  - split; [|split].
    + exact (A (KFunc 2) 1%nat KO_f2 eq_refl).
    + exact (A (KFunc 3) 2%nat KO_f3 eq_refl).
    + exact (A (KMeth 1 20) 0%nat KO_m eq_refl).
  - apply B. discriminate.
  - intros k KO F. exact (C k (KFunc 2) 1%nat KO KO_f2 F eq_refl).
  - exact (D 3%nat 0%nat 0%nat eq_refl).
  - split; [exact (E 0%nat (VFunc 1%nat) eq_refl) | exact (E 1%nat (VFunc 3%nat) eq_refl)].
Qed.

(* c17_latest: every object holds the body of version 2 after h0 *)
Lemma nv_c17_latest :
  nth_error (funcs st2) 1 = Some (FBody 202) /\ nth_error (funcs st2) 2 = Some (FBody 203) /\
  nth_error (funcs st2) 0 = Some (FBody 220).
Proof.
  pose proof (c17_latest S0 WF0 beta0 h0 st2 _ 2%nat OK0 R0 LL0) as L.
  split; [|split].
  - exact (L (KFunc 2) 1%nat KO_f2 eq_refl).
  - exact (L (KFunc 3) 2%nat KO_f3 eq_refl).
  - exact (L (KMeth 1 20) 0%nat KO_m eq_refl).
Qed.
(* ... and after h1 alone (last load = 1) they hold the bodies of version 1: the theorem distinguishes versions *)
Lemma nv_c17_latest_v1 :
  nth_error (funcs st1) 1 = Some (FBody 102) /\ nth_error (funcs st1) 0 = Some (FBody 120).
Proof.
  pose proof (c17_latest S0 WF0 beta0 h1 st1 _ 1%nat OK1 R1 eq_refl) as L.
  split; [exact (L (KFunc 2) 1%nat KO_f2 eq_refl) | exact (L (KMeth 1 20) 0%nat KO_m eq_refl)].
Qed.

(* c17_latest_call: both conjuncts; the references were taken in st1, BEFORE the reload *)
Lemma nv_c17_latest_call :
  (* the function value of 2 captured in slot 0 (object 1) *)
  call_obs st2 (VFunc 1%nat) = Some (OCall 202 None) /\
  (* the bound method captured in slot 1 (object 3 = FBound 0%nat 0%nat, target = object of method 1.20) *)
  call_obs st2 (VFunc 3%nat) = Some (OCall 220 (Some 0%nat)).
Proof.
  split.
  - exact (proj1 (c17_latest_call S0 WF0 beta0 h1 h2 st1 o1 st2 o2 2%nat OK1 OK2 R1 R2 LL12 (KFunc 2) 1%nat KO_f2) eq_refl).
  - exact (proj2 (c17_latest_call S0 WF0 beta0 h1 h2 st1 o1 st2 o2 2%nat OK1 OK2 R1 R2 LL12 (KMeth 1 20) 3%nat KO_m)
             0%nat 0%nat eq_refl eq_refl).
Qed.

(* c17_any_call: premise call_obs st2 (VFunc c) = Some ob met for c = 3; the k it yields is pinned down *)
Lemma nv_c17_any_call :
  exists k r a, k = KMeth 1 20 /\ nth_error (funcs st2) 3 = Some (FBound r a) /\ fn_addr st2 k = Some a /\ r = 0%nat.
Proof.
  assert (CO : call_obs st2 (VFunc 3%nat) = Some (OCall 220 (Some 0%nat))) by reflexivity.
  destruct (c17_any_call S0 WF0 beta0 h0 st2 _ 2%nat OK0 R0 LL0 3%nat _ CO) as (k & recv & KO & EQ & ALT).
  destruct ALT as [[RN F]|(r & a & RS & N & F)].
  - subst recv. destruct (key_ok_S0 k KO) as [-> | [-> | ->]]; discriminate EQ.
  - subst recv. exists k, r, a.
    destruct (key_ok_S0 k KO) as [-> | [-> | ->]]; try discriminate EQ.
    inversion EQ. subst r. split; [reflexivity|]. split; [exact N|]. split; [exact F|reflexivity].
Qed.
(* for c = 1 (a plain function object) the first alternative is the one that holds *)
Lemma nv_c17_any_call_2 : exists k, k = KFunc 2 /\ fn_addr st2 k = Some 1%nat.
Proof.
  assert (CO : call_obs st2 (VFunc 1%nat) = Some (OCall 202 None)) by reflexivity.
  destruct (c17_any_call S0 WF0 beta0 h0 st2 _ 2%nat OK0 R0 LL0 1%nat _ CO) as (k & recv & KO & EQ & ALT).
  destruct ALT as [[RN F]|(r & a & RS & N & F)].
  - exists k. destruct (key_ok_S0 k KO) as [-> | [-> | ->]]; subst recv; try discriminate EQ. auto.
  - subst recv. discriminate EQ.
Qed.

(* c17_invariant on the full history and on the prefix *)
Lemma nv_c17_invariant : Inv S0 st1 /\ Inv S0 st2.
Proof.
  split; [exact (c17_invariant S0 WF0 beta0 h1 st1 o1 OK1 R1) | exact (c17_invariant S0 WF0 beta0 h0 st2 _ OK0 R0)].
Qed.
(* a concrete consequence of each field of Inv *)
Lemma nv_c17_invariant_use :
  (exists b, nth_error (funcs st2) 0 = Some (FBody b)) /\ (0 < length (types st2))%nat /\
  (forall k, key_ok S0 k -> fn_addr st2 k = Some 2%nat -> k = KFunc 3).
Proof.
  destruct nv_c17_invariant as [_ I]. split; [|split].
  - exact (inv_faddr S0 st2 I (KMeth 1 20) 0%nat KO_m eq_refl).
  - apply (inv_ty S0 st2 I 1 0%nat); [simpl; auto | reflexivity].
  - intros k KO F. exact (inv_inj S0 st2 I k (KFunc 3) 2%nat KO KO_f3 F eq_refl).
Qed.

(* c17_state: one Load from a REACHABLE NON-INITIAL state *)
(* st1 : global 4 was stored 42 (non-nil: kept), global 5 was stored 77 (re-initialised to 5), 7 holds an instance.
   st1b: after two more stores: global 4 := nil (value of the undeclared global 99), global 6 := 1 (the variable that
         held function 2 is overwritten by an int -- allowed by hist_ok, 6 is a variable) *)
Definition h1b : list hop :=
  (h1 ++ [HStore (LGlobal 4) (EArg (APath (PGlobal 99))); HStore (LGlobal 6) (EArg (AConst 1))])%list.
Definition st1b : state := Eval vm_compute in st_of (run (prog S0 beta0) init_state h1b).
Definition st1' : state := Eval vm_compute in sto (exec_list st1 (version_of S0 (beta0 2))).
Definition st1b' : state := Eval vm_compute in sto (exec_list st1b (version_of S0 (beta0 2))).

Lemma OK1b : hist_ok S0 h1b.
Proof.
  apply Forall_app. split. exact OK1.
  repeat constructor; simpl; unfold protected; simpl; intuition discriminate.
Qed.
Lemma R1b : run (prog S0 beta0) init_state h1b = Some (st1b, o1). Proof. vm_compute. reflexivity. Qed.
Lemma E1 : exec_list st1 (version_of S0 (beta0 2)) = Some st1'. Proof. vm_compute. reflexivity. Qed.
Lemma E1b : exec_list st1b (version_of S0 (beta0 2)) = Some st1b'. Proof. vm_compute. reflexivity. Qed.
Lemma Inv1b : Inv S0 st1b. Proof. exact (c17_invariant S0 WF0 beta0 h1b st1b o1 OK1b R1b). Qed.

Lemma nv_c17_state_1 :
  (* non-nil value kept *)       (gget st1 4 = VInt 42 /\ gget st1' 4 = VInt 42) /\
  (* nil value replaced by z *)  (gget st1b 4 = VNil /\ gget st1b' 4 = VInt 0) /\
  (* a pointer variable keeps its instance *) (gget st1 7 = VInst 0%nat /\ gget st1' 7 = VInst 0%nat).
Proof.
  destruct (c17_state S0 (beta0 2) WF0) as (Z & _).
  split; [|split]; (split; [reflexivity|]).
  - exact (Z st1 st1' 4 (VInt 0) (or_introl eq_refl) E1).
  - exact (Z st1b st1b' 4 (VInt 0) (or_introl eq_refl) E1b).
  - exact (Z st1 st1' 7 VNil (or_intror (or_intror (or_intror (or_introl eq_refl)))) E1).
Qed.
Lemma nv_c17_state_2 : gget st1 5 = VInt 77 /\ gget st1' 5 = VInt 5.
Proof.
  destruct (c17_state S0 (beta0 2) WF0) as (_ & C & _).
  split; [reflexivity | exact (C st1 st1' 5 5 (or_intror (or_introl eq_refl)) E1)].
Qed.
Lemma nv_c17_state_3 :
  (* from st1 (6 still holds function 2) and from st1b (6 was overwritten by the int 1) *)
  (gget st1' 6 = gget st1' 2 /\ exists a, gget st1' 2 = VFunc a) /\
  (gget st1b 6 = VInt 1 /\ gget st1b' 6 = gget st1b' 2 /\ exists a, gget st1b' 2 = VFunc a) /\
  gget st1b' 6 = VFunc 1%nat.
Proof.
  destruct (c17_state S0 (beta0 2) WF0) as (_ & _ & F & _).
  assert (HI : In (VSet 6 (EArg (APath (PGlobal 2)))) (svars S0)) by (simpl; auto).
  assert (HF : In 2 (sfuncs S0)) by (simpl; auto).
  split; [|split].
  - exact (F st1 st1' 6 2 HI HF E1).
  - split. reflexivity. exact (F st1b st1b' 6 2 HI HF E1b).
  - reflexivity.
Qed.
(* conjunct 3 holds from ANY state (it has no premise `Inv S st`): a state that is NOT
   reachable and violates the invariant -- the names of functions 2 and 3 share ONE function object -- on which
   the Load nevertheless runs through *)
Definition st_bad : state := mkState [FBody 7] [] [] [(2, VFunc 0%nat); (3, VFunc 0%nat)] [].
Lemma nv_c17_state_3_noninv :
  ~ Inv S0 st_bad /\
  (exists st', exec_list st_bad (version_of S0 (beta0 2)) = Some st' /\
               gget st' 6 = gget st' 2 /\ gget st' 2 = VFunc 0%nat /\ gget st' 3 = VFunc 0%nat).
Proof.
  split.
  - intros I. assert (C : KFunc 2 = KFunc 3); [|discriminate C].
    apply (inv_inj S0 st_bad I (KFunc 2) (KFunc 3) 0%nat); simpl; auto.
  - destruct (c17_state S0 (beta0 2) WF0) as (_ & _ & F & _).
    eexists. split; [vm_compute; reflexivity|].
    split; [|split; reflexivity].
    refine (proj1 (F st_bad _ 6 2 _ _ _)); simpl; auto.
Qed.
Lemma nv_c17_state_4 :
  slots st1' = [VFunc 1%nat; VFunc 3%nat] /\ exists y, insts st1' = (insts st1 ++ y)%list.
Proof.
  destruct (c17_state S0 (beta0 2) WF0) as (_ & _ & _ & O).
  destruct (O st1 st1' E1) as [SL IN]. split; [rewrite SL; reflexivity | exact IN].
Qed.

(* c17_idem: non-empty prefix h1, version 2, an observation sequence that distinguishes states *)
Definition hobs : list hop :=
  [HCall (PSlot 0); HCall (PSlot 1); HCall (PGlobal 6); HCall (PAttr (PGlobal 7) 20); HSame (PSlot 0) (PGlobal 2);
   HSame (PSlot 1) (PAttr (PGlobal 7) 20); HCall (PGlobal 3)].
Lemma nv_c17_idem :
  run (prog S0 beta0) st1 (HLoad 2 :: HLoad 2 :: hobs) = run (prog S0 beta0) st1 (HLoad 2 :: hobs) /\
  (* both sides are Some, with these observations ... *)
  ob_of (run (prog S0 beta0) st1 (HLoad 2 :: HLoad 2 :: hobs)) =
    [OCall 202 None; OCall 220 (Some 0%nat); OCall 202 None; OCall 220 (Some 0%nat); OSame true; OSame false; OCall 203 None] /\
  (* ... which the same observation sequence distinguishes from the state before the Load *)
  ob_of (run (prog S0 beta0) st1 hobs) =
    [OCall 102 None; OCall 120 (Some 0%nat); OCall 102 None; OCall 120 (Some 0%nat); OSame true; OSame false; OCall 103 None].
Proof.
  pose proof (c17_idem S0 beta0 WF0 SI0 h1 st1 o1 2%nat hobs OK1 R1) as H.
  split. exact H. split.
  - rewrite H. vm_compute. reflexivity.
  - vm_compute. reflexivity.
Qed.
(* idem from the state in which variable 4 is nil and variable 6 holds an int: the first Load changes both,
   the second changes nothing *)
Lemma nv_c17_idem_b :
  run (prog S0 beta0) st1b (HLoad 2 :: HLoad 2 :: hobs) = run (prog S0 beta0) st1b (HLoad 2 :: hobs) /\
  gget (st_of (run (prog S0 beta0) st1b (HLoad 2 :: HLoad 2 :: hobs))) 4 = VInt 0.
Proof.
  pose proof (c17_idem S0 beta0 WF0 SI0 h1b st1b o1 2%nat hobs OK1b R1b) as H.
  split. exact H. rewrite H. vm_compute. reflexivity.
Qed.

(* Part B: a richer signature; receivers and targets of bound methods differ; two reloads *)
Definition S1 : sig :=
  mkSig [(1, [(10, VInt 0); (11, VNil)]); (8, [(12, VInt 3)])] [(1, 20); (1, 21); (8, 20)] [2; 3]
        [VZero 4 (VInt 0); VSet 5 (EArg (AConst 5)); VSet 6 (EArg (APath (PGlobal 2))); VZero 7 VNil; VZero 9 (VInt 7)].
Definition beta1 (v : nat) : bodies :=
  mkBodies (fun n => Z.of_nat v * 1000 + n) (fun t m => Z.of_nat v * 1000 + t * 100 + m).
Definition g1 : list hop :=
 [HLoad 1;
  HStore (LGlobal 7) (ENew 1 [(10, AConst 8)]);
  HStore (LGlobal 7) (ENew 1 [(10, AConst 9); (11, APath (PGlobal 3))]);   (* field 11 holds function 3 *)
  HStore (LGlobal 30) (ENew 8 []);                                         (* 30: an undeclared (host) global *)
  HStore (LGlobal 30) (ENew 8 [(12, AConst 4)]);
  HStore LSlot (EArg (APath (PGlobal 2)));                                 (* slot 0: function 2 *)
  HStore LSlot (EArg (APath (PAttr (PGlobal 7) 20)));                      (* slot 1: bound (inst 1).20 *)
  HStore LSlot (EArg (APath (PAttr (PGlobal 30) 20)));                     (* slot 2: bound (inst 3).20 of type 8 *)
  HStore (LGlobal 4) (EArg (AConst 42));
  HStore (LGlobal 5) (EArg (AConst 77));
  HStore (LGlobal 6) (EArg (APath (PGlobal 3)));       (* the variable initialised with function 2 now holds function 3 *)
  HStore (LGlobal 9) (EArg (APath (PGlobal 99)));      (* 9 := nil *)
  HStore (LField (PGlobal 7) 10) (EArg (APath (PSlot 1)));                 (* a field holds the bound method *)
  HCall (PSlot 0); HCall (PSlot 1); HCall (PSlot 2); HCall (PGlobal 6); HCall (PAttr (PGlobal 7) 11);
  HCall (PAttr (PGlobal 7) 10)].
Definition gobs : list hop :=
  [HCall (PSlot 0); HCall (PSlot 1); HCall (PSlot 2); HCall (PGlobal 6); HCall (PAttr (PGlobal 7) 11);
   HCall (PAttr (PGlobal 7) 10);
   HSame (PSlot 0) (PGlobal 2); HSame (PGlobal 6) (PGlobal 2); HSame (PSlot 1) (PAttr (PGlobal 7) 20)].
Definition g2 : list hop := HLoad 3 :: HLoad 2 :: gobs.

Definition t1 : state := Eval vm_compute in st_of (run (prog S1 beta1) init_state g1).
Definition p1 : list obs := Eval vm_compute in ob_of (run (prog S1 beta1) init_state g1).
Definition t2 : state := Eval vm_compute in st_of (run (prog S1 beta1) t1 g2).
Definition p2 : list obs := Eval vm_compute in ob_of (run (prog S1 beta1) t1 g2).

Lemma WF1 : wf_sig S1.
Proof.
  split.
  - simpl. repeat constructor; simpl; intuition discriminate.
  - simpl. intros t m [E|[E|[E|[]]]]; inversion E; auto.
  - simpl. intros t fs [E|[E|[]]]; inversion E; subst; simpl; repeat constructor; simpl; intuition discriminate.
Qed.
Lemma SI1 : simple_init S1.
Proof.
  intros n e HI. simpl in HI. destruct HI as [E|[E|[E|[E|[E|[]]]]]]; inversion E; subst.
  - left. eauto.
  - right. exists 2. simpl. auto.
Qed.
Lemma GOK1 : hist_ok S1 g1.
Proof. unfold g1. repeat constructor; simpl; unfold protected; simpl; intuition discriminate. Qed.
Lemma GOK2 : hist_ok S1 g2.
Proof. unfold g2, gobs. repeat constructor. Qed.
Lemma Q1 : run (prog S1 beta1) init_state g1 = Some (t1, p1). Proof. vm_compute. reflexivity. Qed.
Lemma Q2 : run (prog S1 beta1) t1 g2 = Some (t2, p2). Proof. vm_compute. reflexivity. Qed.
Lemma Q12 : run (prog S1 beta1) init_state (g1 ++ g2) = Some (t2, (p1 ++ p2)%list). Proof. vm_compute. reflexivity. Qed.
Lemma GOK12 : hist_ok S1 (g1 ++ g2). Proof. apply Forall_app. split; [exact GOK1 | exact GOK2]. Qed.

Lemma nv_B_obs :
  p1 = [OCall 1002 None; OCall 1120 (Some 1%nat); OCall 1820 (Some 3%nat); OCall 1003 None; OCall 1003 None;
        OCall 1120 (Some 1%nat)] /\
  p2 = [OCall 2002 None; OCall 2120 (Some 1%nat); OCall 2820 (Some 3%nat); OCall 2002 None; OCall 2003 None;
        OCall 2120 (Some 1%nat); OSame true; OSame true; OSame false].
Proof. split; reflexivity. Qed.

Lemma key_ok_S1 : forall k, key_ok S1 k ->
  k = KFunc 2 \/ k = KFunc 3 \/ k = KMeth 1 20 \/ k = KMeth 1 21 \/ k = KMeth 8 20.
Proof.
  intros [n|t m]; simpl; intros H.
  - destruct H as [<-|[<-|[]]]; auto.
  - destruct H as [E|[E|[E|[]]]]; inversion E; auto 6.
Qed.
Lemma K1_f2 : key_ok S1 (KFunc 2). Proof. simpl; auto. Qed.
Lemma K1_f3 : key_ok S1 (KFunc 3). Proof. simpl; auto. Qed.
Lemma K1_m120 : key_ok S1 (KMeth 1 20). Proof. simpl; auto. Qed.
Lemma K1_m121 : key_ok S1 (KMeth 1 21). Proof. simpl; auto. Qed.
Lemma K1_m820 : key_ok S1 (KMeth 8 20). Proof. simpl; auto. Qed.

(* identity: the same method NAME on two types has two objects (0 and 2); bound objects 5 = FBound 1%nat 0%nat, 6 = FBound 3%nat 2%nat *)
Lemma nv_c17_identity_B :
  (fn_addr t2 (KMeth 1 20) = Some 0%nat /\ fn_addr t2 (KMeth 1 21) = Some 1%nat /\ fn_addr t2 (KMeth 8 20) = Some 2%nat /\
   fn_addr t2 (KFunc 2) = Some 3%nat /\ fn_addr t2 (KFunc 3) = Some 4%nat) /\
  (forall k, key_ok S1 k -> fn_addr t1 k = Some 2%nat -> k = KMeth 8 20) /\
  (nth_error (funcs t2) 5 = Some (FBound 1%nat 0%nat) /\ nth_error (funcs t2) 6 = Some (FBound 3%nat 2%nat)) /\
  nth_error (slots t2) 2 = Some (VFunc 6%nat).
Proof.
  destruct (c17_identity S1 WF1 beta1 g1 g2 t1 p1 t2 p2 GOK1 GOK2 Q1 Q2) as (A & B & C & D & E).
  split; [split; [|split; [|split; [|split]]] | split; [|split; [split|]]].
  - exact (A _ _ K1_m120 eq_refl).
  - exact (A _ _ K1_m121 eq_refl).
  - exact (A _ _ K1_m820 eq_refl).
  - exact (A _ _ K1_f2 eq_refl).
  - exact (A _ _ K1_f3 eq_refl).
  - intros k KO F. exact (C k (KMeth 8 20) 2%nat KO K1_m820 F eq_refl).
  - exact (D 5%nat 1%nat 0%nat eq_refl).
  - exact (D 6%nat 3%nat 2%nat eq_refl).
  - exact (E 2%nat (VFunc 6%nat) eq_refl).
Qed.

(* latest / latest_call: the last Load of g1 ++ g2 is version 2 although version 3 was loaded in between *)
Lemma nv_c17_latest_call_B :
  last_load (g1 ++ g2) = Some 2%nat /\
  call_obs t2 (VFunc 3%nat) = Some (OCall 2002 None) /\               (* function 2, captured in slot 0 *)
  call_obs t2 (VFunc 4%nat) = Some (OCall 2003 None) /\               (* function 3, kept in field 11 of inst 1 and in variable 6 *)
  call_obs t2 (VFunc 5%nat) = Some (OCall 2120 (Some 1%nat)) /\       (* bound (inst 1).20, in slot 1 and in field 10 *)
  call_obs t2 (VFunc 6%nat) = Some (OCall 2820 (Some 3%nat)) /\       (* bound (inst 3).20 of type 8 *)
  nth_error (funcs t2) 1 = Some (FBody 2121).
Proof.
  assert (LL : last_load (g1 ++ g2) = Some 2%nat) by reflexivity.
  pose proof (c17_latest_call S1 WF1 beta1 g1 g2 t1 p1 t2 p2 2%nat GOK1 GOK2 Q1 Q2 LL) as L.
  split; [exact LL|]. split; [|split; [|split; [|split]]].
  - exact (proj1 (L (KFunc 2) 3%nat K1_f2) eq_refl).
  - exact (proj1 (L (KFunc 3) 4%nat K1_f3) eq_refl).
  - exact (proj2 (L (KMeth 1 20) 5%nat K1_m120) 1%nat 0%nat eq_refl eq_refl).
  - exact (proj2 (L (KMeth 8 20) 6%nat K1_m820) 3%nat 2%nat eq_refl eq_refl).
  - exact (c17_latest S1 WF1 beta1 (g1 ++ g2) t2 _ 2%nat GOK12 Q12 LL (KMeth 1 21) 1%nat K1_m121 eq_refl).
Qed.

(* any_call on object 7: a bound method allocated AFTER the reloads by the last HSame of gobs *)
Lemma nv_c17_any_call_B :
  exists k r a, k = KMeth 1 20 /\ nth_error (funcs t2) 7 = Some (FBound r a) /\ fn_addr t2 k = Some a /\ r = 1%nat /\ a = 0%nat.
Proof.
  assert (CO : call_obs t2 (VFunc 7%nat) = Some (OCall 2120 (Some 1%nat))) by reflexivity.
  assert (LL : last_load (g1 ++ g2) = Some 2%nat) by reflexivity.
  destruct (c17_any_call S1 WF1 beta1 (g1 ++ g2) t2 _ 2%nat GOK12 Q12 LL 7%nat _ CO) as (k & recv & KO & EQ & ALT).
  destruct ALT as [[RN F]|(r & a & RS & N & F)]; subst recv.
  - destruct (key_ok_S1 k KO) as [->|[->|[-> | [-> | ->]]]]; discriminate EQ.
  - exists k, r, a. destruct (key_ok_S1 k KO) as [->|[->|[-> | [-> | ->]]]]; try discriminate EQ.
    inversion EQ. subst r. split; [reflexivity|]. split; [exact N|]. split; [exact F|]. split; [reflexivity|].
    vm_compute in F. congruence.
Qed.

(* state: one Load (version 3) from t1.  4 was stored 42: kept; 9 was set to nil: gets its zero value 7; 5: 77 -> 5;
   6 held function 3: holds function 2 again; host slots kept *)
Definition t1' : state := Eval vm_compute in sto (exec_list t1 (version_of S1 (beta1 3))).
Lemma F1 : exec_list t1 (version_of S1 (beta1 3)) = Some t1'. Proof. vm_compute. reflexivity. Qed.
Lemma InvT1 : Inv S1 t1. Proof. exact (c17_invariant S1 WF1 beta1 g1 t1 p1 GOK1 Q1). Qed.
Lemma nv_c17_state_B :
  (gget t1 4 = VInt 42 /\ gget t1' 4 = VInt 42) /\ (gget t1 9 = VNil /\ gget t1' 9 = VInt 7) /\
  (gget t1 5 = VInt 77 /\ gget t1' 5 = VInt 5) /\
  (gget t1 6 = VFunc 4%nat /\ gget t1' 6 = gget t1' 2 /\ gget t1' 6 = VFunc 3%nat) /\
  (slots t1' = slots t1 /\ exists y, insts t1' = (insts t1 ++ y)%list).
Proof.
  destruct (c17_state S1 (beta1 3) WF1) as (Z & C & F & O).
  split; [|split; [|split; [|split]]].
  - split; [reflexivity|]. exact (Z t1 t1' 4 (VInt 0) (or_introl eq_refl) F1).
  - split; [reflexivity|]. exact (Z t1 t1' 9 (VInt 7) (or_intror (or_intror (or_intror (or_intror (or_introl eq_refl))))) F1).
  - split; [reflexivity|]. exact (C t1 t1' 5 5 (or_intror (or_introl eq_refl)) F1).
  - split; [reflexivity|].
    pose proof (F t1 t1' 6 2 (or_intror (or_intror (or_introl eq_refl))) (or_introl eq_refl) F1) as [EQ [a G]].
    split; [exact EQ|]. rewrite EQ. reflexivity.
  - exact (O t1 t1' F1).
Qed.

(* idem after a long prefix, with the two-type observation sequence; and at a second point of the history *)
Lemma nv_c17_idem_B :
  run (prog S1 beta1) t1 (HLoad 3 :: HLoad 3 :: gobs) = run (prog S1 beta1) t1 (HLoad 3 :: gobs) /\
  ob_of (run (prog S1 beta1) t1 (HLoad 3 :: HLoad 3 :: gobs)) =
    [OCall 3002 None; OCall 3120 (Some 1%nat); OCall 3820 (Some 3%nat); OCall 3002 None; OCall 3003 None;
     OCall 3120 (Some 1%nat); OSame true; OSame true; OSame false] /\
  run (prog S1 beta1) t2 (HLoad 1 :: HLoad 1 :: gobs) = run (prog S1 beta1) t2 (HLoad 1 :: gobs).
Proof.
  pose proof (c17_idem S1 beta1 WF1 SI1 g1 t1 p1 3%nat gobs GOK1 Q1) as H.
  split. exact H. split.
  - rewrite H. vm_compute. reflexivity.
  - exact (c17_idem S1 beta1 WF1 SI1 (g1 ++ g2) t2 _ 1%nat gobs GOK12 Q12).
Qed.

(* simple_init is not gratuitous: with an allocating initialiser  var 8 = &T{}  Load;Load differs observably from Load *)
Definition S2 : sig := mkSig [(1, [(10, VInt 0)])] [] [] [VSet 8 (ENew 1 [])].
Lemma nv_simple_init_needed :
  wf_sig S2 /\ ~ simple_init S2 /\
  let h := [HStore LSlot (EArg (APath (PGlobal 8)))] in
  let probe := [HSame (PSlot 0) (PGlobal 8)] in
  ob_of (run (prog S2 beta0) init_state ([HLoad 1] ++ h ++ [HLoad 1] ++ probe)) = [OSame false] /\
  ob_of (run (prog S2 beta0) init_state ([HLoad 1] ++ h ++ probe)) = [OSame true].
Proof.
  split; [|split].
  - split; simpl.
    + repeat constructor; simpl; intuition discriminate.
    + intros t m [].
    + intros t fs [E|[]]. inversion E. repeat constructor; simpl; intuition.
  - intros SI. destruct (SI 8 (ENew 1 []) (or_introl eq_refl)) as [[z E]|(f & E & _)]; discriminate E.
  - split; vm_compute; reflexivity.
Qed.

(* Part C: what hist_ok allows / excludes, and when run = None *)
(* allowed: overwriting a variable that holds a function, writing undeclared globals, writing function values into
   fields; excluded: exactly the stores to a declared function name (2) or type name (1) *)
Lemma nv_hist_ok_scope :
  hist_ok S0 [HStore (LGlobal 6) (EArg (APath (PGlobal 3))); HStore (LGlobal 6) (EArg (AConst 0));
              HStore (LGlobal 99) (EArg (APath (PGlobal 2))); HStore (LField (PGlobal 7) 11) (EArg (APath (PGlobal 2)));
              HStore (LGlobal 20) (EArg (AConst 1)); HStore (LGlobal 10) (EArg (AConst 1))] /\
  ~ hist_ok S0 [HStore (LGlobal 2) (EArg (AConst 0))] /\
  ~ hist_ok S0 [HStore (LGlobal 1) (EArg (AConst 0))] /\
  (forall n, protected S0 n <-> n = 1 \/ n = 2 \/ n = 3).
Proof.
  repeat split.
  - repeat constructor; simpl; unfold protected; simpl; intuition discriminate.
  - intros H. inversion H as [|? ? P _]. apply P. right. simpl. auto.
  - intros H. inversion H as [|? ? P _]. apply P. left. simpl. auto.
  - unfold protected. simpl. intuition.
  - unfold protected. simpl. intuition.
Qed.

(* run = None: histories that are hist_ok but contain a step that fails.
   (a) calling a nil variable (a run-time panic in the real VM);
   (b) dereferencing a nil pointer variable (panic);
   (c) HSame on two scalars or on nil: NOT a panic in the real VM -- same_obj is simply undefined there, the whole
       history is dropped from the quantifier (harmless: HSame does not change globals/slots; drop the step);
   (d) a Load whose initialiser panics: for S3 (var 8 = p.f with p a nil pointer variable) a history that starts
       with a Load is None for every version and every beta (faithful: the real package panics while loading), so
       for such a wf_sig the theorems with a `last_load h = Some v` premise have nothing to say.  Argued, not
       proved: for simple_init signatures a Load does not fail in a reachable state (GlobalStruct / SetMethod /
       GlobalFunc find VNil or the right kind of object because hist_ok protects those names; GlobalZero and
       GlobalSet of a constant / global are total), so the None of HLoad should hide nothing there. *)
Definition S3 : sig := mkSig [(1, [(10, VInt 0)])] [] [] [VZero 7 VNil; VSet 8 (EArg (APath (PAttr (PGlobal 7) 10)))].
Lemma nv_run_none :
  (hist_ok S0 [HLoad 1; HCall (PGlobal 7)] /\ run (prog S0 beta0) init_state [HLoad 1; HCall (PGlobal 7)] = None) /\
  (hist_ok S0 [HLoad 1; HStore LSlot (EArg (APath (PAttr (PGlobal 7) 10)))] /\
   run (prog S0 beta0) init_state [HLoad 1; HStore LSlot (EArg (APath (PAttr (PGlobal 7) 10)))] = None) /\
  (hist_ok S0 [HLoad 1; HSame (PGlobal 4) (PGlobal 5)] /\
   run (prog S0 beta0) init_state [HLoad 1; HSame (PGlobal 4) (PGlobal 5)] = None /\
   run (prog S0 beta0) init_state [HLoad 1; HSame (PGlobal 7) (PGlobal 7)] = None) /\
  (wf_sig S3 /\ forall beta v h, run (prog S3 beta) init_state (HLoad v :: h) = None).
Proof.
  split; [|split; [|split]].
  - split; [repeat constructor | vm_compute; reflexivity].
  - split; [repeat constructor | vm_compute; reflexivity].
  - split; [repeat constructor | split; vm_compute; reflexivity].
  - split.
    + split; simpl.
      * repeat constructor; simpl; intuition discriminate.
      * intros t m [].
      * intros t fs [E|[]]. inversion E. repeat constructor; simpl; intuition.
    + intros beta v h. reflexivity.
Qed.
(* a failing step in the MIDDLE of a history removes the whole history, including everything the real VM would go on
   to do after recovering from the panic (the model has no "recovered panic" step) *)
Lemma nv_run_none_middle :
  hist_ok S0 (h1 ++ [HCall (PGlobal 4)] ++ h2) /\ run (prog S0 beta0) init_state (h1 ++ [HCall (PGlobal 4)] ++ h2) = None.
Proof.
  split.
  - apply Forall_app. split. exact OK1. constructor. exact I. exact OK2.
  - vm_compute. reflexivity.
Qed.

Print Assumptions nv_c17_identity.
Print Assumptions nv_c17_latest_call.
Print Assumptions nv_c17_any_call.
Print Assumptions nv_c17_state_3.
Print Assumptions nv_c17_idem.
Print Assumptions nv_c17_idem_B.
Print Assumptions nv_c17_any_call_B.
