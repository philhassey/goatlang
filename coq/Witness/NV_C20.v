(* NV_C20 -- the theorems of Props/C20.v applied to concrete witnesses.
   Every theorem of Props/C20.v that has premises (or lives in Section C20 with the ext_*_bt hypotheses) is
   instantiated here with concrete, non-trivial witnesses:
     - oracles that really answer [Some (Ok ..)] with a CHANGED state (globals / output), [Some Panic] on
       selected keys / attributes, and that satisfy the three Section hypotheses;
     - a run that fails two calls deep, started with a NON-empty active chain;
     - windows for several rules of the generated peephole table, failure case and call case.
   Lemmas named [remark_*] record facts about the shape of the statements (what the [| _ => True] branch covers). *)
From Coq Require Import ZArith List String Bool Lia.
From GV Require Import GoSpec.GoPrim Gen.ValueOps_gen Gen.Tables_gen Model.PeepTypes Model.VM Model.Peephole Model.Backtrace
  Proofs.C02_rules Proofs.C20_bt Proofs.C20_fuse Props.C20.
Import ListNotations.
Open Scope Z_scope.

Definition my_grow : Z -> Z -> Z := fun c n => 2 * n + c.
Definition my_get : st -> value -> value -> option (res value) :=
  fun s r k => if Value_Int k =? 9 then Some Panic else Some (Ok k).
(* Set on a foreign object: writes global 4 (a changed state), panics on key 9 *)
Definition my_set : st -> value -> value -> value -> option (res st) :=
  fun s r k v => if Value_Int k =? 9 then Some Panic else Some (Ok (set_global s 4 v)).
Definition my_len : st -> value -> option Z := fun _ _ => Some 3.
(* getIndex: attribute 7 panics, attribute 8 is a method (function object 0), every other attribute is an
   int; every successful access also writes one byte of output (a changed state) *)
Definition my_getattr : st -> value -> Z -> option (res (value * st)) :=
  fun s r a => if a =? 7 then Some Panic
               else if a =? 8 then Some (Ok (refV TypeFunc 0, emit s [71]))
               else Some (Ok (fn_Int a, emit s [65])).
(* setIndex: writes global 3, attribute 7 panics *)
Definition my_setattr : st -> value -> Z -> value -> option (res st) :=
  fun s r a v => if a =? 7 then Some Panic else Some (Ok (set_global s 3 v)).

Lemma my_set_bt : forall s r k v s', my_set s r k v = Some (Ok s') -> bt s' = bt s.
Proof. intros s r k v s'. unfold my_set. destruct (Value_Int k =? 9); intro H; inversion H; reflexivity. Qed.
Lemma my_getattr_bt : forall s r a v s', my_getattr s r a = Some (Ok (v, s')) -> bt s' = bt s.
Proof.
  intros s r a v s'. unfold my_getattr. destruct (a =? 7); [discriminate|].
  destruct (a =? 8); intro H; inversion H; reflexivity.
Qed.
Lemma my_setattr_bt : forall s r a v s', my_setattr s r a v = Some (Ok s') -> bt s' = bt s.
Proof. intros s r a v s'. unfold my_setattr. destruct (a =? 7); intro H; inversion H; reflexivity. Qed.

(* the oracles are not the trivial ones: they answer Some (Ok ..) with a state different from the input *)
Lemma nv_oracles_change_state :
  (exists s s', my_set s nilV (fn_Int 1) (fn_Int 2) = Some (Ok s') /\ globals s' <> globals s) /\
  (exists s v s', my_getattr s nilV 3 = Some (Ok (v, s')) /\ out s' <> out s) /\
  (exists s s', my_setattr s nilV 3 (fn_Int 2) = Some (Ok s') /\ globals s' <> globals s) /\
  my_getattr (mkSt [] [] [] []) nilV 7 = Some Panic.
Proof.
  split; [|split; [|split]].
  - exists (mkSt [nilV; nilV; nilV; nilV; nilV] [] [] [5]). eexists. split; [reflexivity|]. vm_compute. discriminate.
  - exists (mkSt [] [] [] [5]). eexists. eexists. split; [reflexivity|]. vm_compute. discriminate.
  - exists (mkSt [nilV; nilV; nilV; nilV; nilV] [] [] [5]). eexists. split; [reflexivity|]. vm_compute. discriminate.
  - reflexivity.
Qed.

(* the hypotheses are not void either: an oracle that pushes on the backtrace violates them *)
Definition bad_set : st -> value -> value -> value -> option (res st) := fun s _ _ _ => Some (Ok (push_bt s 1)).
Lemma remark_ext_bt_hypothesis_excludes :
  ~ (forall s r k v s', bad_set s r k v = Some (Ok s') -> bt s' = bt s).
Proof.
  intro H. specialize (H (mkSt [] [] [] []) nilV nilV nilV _ eq_refl). discriminate.
Qed.

Notation gexec0 := (gexec my_grow my_get my_set my_len my_getattr my_setattr).
Notation gcall0 := (gcall my_grow my_get my_set my_len my_getattr my_setattr).
Notation grun0 := (grun my_grow my_get my_set my_len my_getattr my_setattr).
Notation exec0 := (exec my_grow my_get my_set my_len my_getattr my_setattr).
Notation call_fn0 := (call_fn my_grow my_get my_set my_len my_getattr my_setattr).
Notation step10 := (step1 my_grow my_get my_set my_len my_getattr my_setattr).
Notation wrep0 := (window_report my_grow my_get my_set my_len my_getattr my_setattr).
Notation frep0 := (fused_report my_grow my_get my_set my_len my_getattr my_setattr).

(* the program: main (fn index 3) calls g (2) on line 9; g calls f (1) on line 5; f uses the foreign objects
   (GETATTR ok, SET ok) and then panics inside ext_getattr on line 4 *)

Definition i_fail : instr := mkI c_GetAttr 7 0 0 (mk_pos 1 4 9).
Definition body_f : list instr :=
  [ mkI c_Push 5 0 0 (mk_pos 1 2 3); mkI c_GetAttr 3 0 0 (mk_pos 1 2 5); mkI c_Pop 0 0 0 (mk_pos 1 2 6);
    mkI c_Push 1 0 0 (mk_pos 1 3 1); mkI c_Push 2 0 0 (mk_pos 1 3 2); mkI c_Push 3 0 0 (mk_pos 1 3 3);
    mkI c_Set 0 0 0 (mk_pos 1 3 4);
    mkI c_Push 5 0 0 (mk_pos 1 4 3); i_fail ].
Definition ci_g : instr := mkI c_Call 0 0 0 (mk_pos 2 5 4).
Definition body_g : list instr := [ mkI c_GlobalGet 0 0 0 (mk_pos 2 5 2); ci_g ].
(* h succeeds, changing the state through setIndex and getIndex *)
Definition body_h : list instr :=
  [ mkI c_Push 1 0 0 (mk_pos 5 30 1); mkI c_Push 2 0 0 (mk_pos 5 30 2); mkI c_SetAttr 4 0 0 (mk_pos 5 30 3);
    mkI c_Push 5 0 0 (mk_pos 5 31 1); mkI c_GetAttr 3 0 0 (mk_pos 5 31 2); mkI c_Pop 0 0 0 (mk_pos 5 31 3) ].
(* k pops from an empty operand stack: malformed code *)
Definition body_k : list instr := [ mkI c_Pop 0 0 0 (mk_pos 6 40 1) ].

Definition ci_main : instr := mkI c_Call 0 0 0 (mk_pos 3 9 4).
Definition main_code : list instr :=
  [ mkI c_Push 1 0 0 (mk_pos 3 8 1); mkI c_Push 2 0 0 (mk_pos 3 8 2); mkI c_SetAttr 4 0 0 (mk_pos 3 8 3);
    mkI c_GlobalGet 1 0 0 (mk_pos 3 9 2); ci_main ].
(* main_ok: calls h, then ends normally *)
Definition ci_h : instr := mkI c_Call 0 0 0 (mk_pos 3 10 4).
Definition main_ok : list instr := [ mkI c_GlobalGet 2 0 0 (mk_pos 3 10 2); ci_h ].

(* the call that is already active when the frame starts *)
Definition c0 : instr := mkI c_Call 0 0 0 (mk_pos 4 20 7).

Definition the_heap : list hobj :=
  [ HFunc 0 0 false 0 0 [] body_f; HFunc 0 0 false 0 0 [] body_g; HFunc 0 0 false 0 0 [] body_h;
    HNative "builtin.println"; HNative "os.Exit"; HFunc 0 0 false 0 0 [] body_k ].
Definition the_globals : list value :=
  [ refV TypeFunc 0; refV TypeFunc 1; refV TypeFunc 2; nilV; nilV; refV TypeFunc 3; refV TypeFunc 4; refV TypeFunc 5 ].
Definition s0 : st := mkSt the_globals the_heap [] [ipos c0].        (* backtrace = [c0] *)
Definition s00 : st := mkSt the_globals the_heap [] [].               (* VM.run: empty backtrace *)

Lemma s0_bt : bt s0 = map ipos [c0].
Proof. reflexivity. Qed.

(* the failing run, from the non-empty chain [c0] *)
Definition run1 := gexec0 100 main_code 0 [] [] s0 [c0].
Lemma run1_shape : exists msg pos s' g,
  run1 = (RFail msg pos s', g) /\
  msg = "runtime error"%string /\ pos = mk_pos 1 4 9 /\
  g_chain g = [ci_g; ci_main; c0] /\ g_at g = Some i_fail /\
  out s' = [65] /\ znth (globals s') 3 = Some (fn_newUntypedInt 1) /\ znth (globals s') 4 = Some (fn_newUntypedInt 1).
Proof. vm_compute. do 4 eexists. repeat split; reflexivity. Qed.

(* c20_bt_inv, RFail branch: non-empty chain, failure two calls deep, oracles that changed the state on the way *)
Lemma nv_c20_bt_inv : exists msg pos s' g,
  run1 = (RFail msg pos s', g) /\
  (exists inner, g_chain g = (inner ++ [c0])%list /\ List.length inner = 2%nat) /\
  bt s' = [mk_pos 2 5 4; mk_pos 3 9 4; mk_pos 4 20 7] /\ out s' = [65].
Proof.
  destruct run1_shape as (msg & pos & s' & g & E & _ & _ & Hc & _ & Ho & _).
  exists msg, pos, s', g. split; [exact E|].
  pose proof (c20_bt_inv my_grow my_get my_set my_len my_getattr my_setattr my_set_bt my_getattr_bt my_setattr_bt
                100%nat main_code 0 [] [] s0 [c0] s0_bt _ _ E) as K.
  cbn beta iota in K. destruct K as [[inner Hi] Hb].
  split; [|split; [|exact Ho]].
  - exists [ci_g; ci_main]. split; [exact Hc | reflexivity].
  - rewrite Hb, Hc. reflexivity.
Qed.

(* c20_bt_inv, RDone branch: a frame that calls h (which changes globals and output) and ends normally *)
Lemma nv_c20_bt_inv_done : exists sl ops s' g,
  gexec0 100 main_ok 0 [] [] s0 [c0] = (RDone sl ops s', g) /\
  bt s' = [mk_pos 4 20 7] /\ out s' = [65] /\ globals s' <> globals s0.
Proof.
  assert (S : exists sl ops s' g, gexec0 100 main_ok 0 [] [] s0 [c0] = (RDone sl ops s', g) /\ out s' = [65] /\
                                  znth (globals s') 3 = Some (fn_newUntypedInt 1)).
  { vm_compute. do 4 eexists. repeat split; reflexivity. }
  destruct S as (sl & ops & s' & g & E & Ho & Hg).
  exists sl, ops, s', g. split; [exact E|].
  pose proof (c20_bt_inv my_grow my_get my_set my_len my_getattr my_setattr my_set_bt my_getattr_bt my_setattr_bt
                100%nat main_ok 0 [] [] s0 [c0] s0_bt _ _ E) as K.
  cbn beta iota in K. split; [exact K|]. split; [exact Ho|].
  intro C. rewrite C in Hg. vm_compute in Hg. discriminate.
Qed.

(* c20_fail_pos *)
Lemma nv_c20_fail_pos : exists msg pos s' g,
  run1 = (RFail msg pos s', g) /\ g_at g = Some i_fail /\ pos = ipos i_fail /\ line_of pos = 4 /\ func_of pos = 1.
Proof.
  destruct run1_shape as (msg & pos & s' & g & E & _ & _ & _ & Ha & _).
  exists msg, pos, s', g. split; [exact E|].
  destruct (c20_fail_pos my_grow my_get my_set my_len my_getattr my_setattr my_set_bt my_getattr_bt my_setattr_bt
              100%nat main_code 0 [] [] s0 [c0] s0_bt _ _ _ _ E) as [i [Hi Hp]].
  rewrite Ha in Hi. inversion Hi; subst i. subst pos. repeat split; try assumption; reflexivity.
Qed.

(* c20_bt_call, CErr (RFail ..) branch: the call of g (from chain [c0]) fails inside f *)
Definition call1 := gcall0 100 true 1 0 0 ci_main [] s0 [c0].
Lemma call1_shape : exists msg pos s' g,
  call1 = (CErr (RFail msg pos s'), g) /\ pos = mk_pos 1 4 9 /\ g_chain g = [ci_g; ci_main; c0] /\ g_at g = Some i_fail.
Proof. vm_compute. do 4 eexists. repeat split; reflexivity. Qed.

Lemma nv_c20_bt_call : exists msg pos s' g,
  call1 = (CErr (RFail msg pos s'), g) /\
  (exists inner, g_chain g = (inner ++ [c0])%list) /\ bt s' = [mk_pos 2 5 4; mk_pos 3 9 4; mk_pos 4 20 7].
Proof.
  destruct call1_shape as (msg & pos & s' & g & E & _ & Hc & _).
  exists msg, pos, s', g. split; [exact E|].
  pose proof (c20_bt_call my_grow my_get my_set my_len my_getattr my_setattr my_set_bt my_getattr_bt my_setattr_bt
                100%nat true 1 0 0 ci_main [] s0 [c0] s0_bt _ _ E) as K.
  cbn beta iota in K. destruct K as [Hi Hb]. split; [exact Hi|]. rewrite Hb, Hc. reflexivity.
Qed.

(* c20_bt_call, COk branch: the call of h returns normally with a changed state and the caller's backtrace *)
Lemma nv_c20_bt_call_ok : exists ops s' g,
  gcall0 100 true 2 0 0 ci_h [] s0 [c0] = (COk ops s', g) /\ bt s' = bt s0 /\ out s' = [65] /\ out s0 = [].
Proof.
  assert (S : exists ops s' g, gcall0 100 true 2 0 0 ci_h [] s0 [c0] = (COk ops s', g) /\ out s' = [65]).
  { vm_compute. do 3 eexists. split; reflexivity. }
  destruct S as (ops & s' & g & E & Ho). exists ops, s', g. split; [exact E|].
  pose proof (c20_bt_call my_grow my_get my_set my_len my_getattr my_setattr my_set_bt my_getattr_bt my_setattr_bt
                100%nat true 2 0 0 ci_h [] s0 [c0] s0_bt _ _ E) as K.
  cbn beta iota in K. split; [exact K|]. split; [exact Ho | reflexivity].
Qed.

(* c20_error_text: the same program as a whole run (empty backtrace) *)
Lemma nv_c20_error_text : exists msg pos s' g,
  grun0 100 main_code 0 s00 = (RFail msg pos s', g) /\
  Some (err_trace pos (bt s')) = ghost_trace g /\
  ghost_trace g = Some [mk_pos 1 4 9; mk_pos 2 5 4; mk_pos 3 9 4] /\
  trace_lines (err_trace pos (bt s')) = [(1, 4); (2, 5); (3, 9)].
Proof.
  assert (S : exists msg pos s' g, grun0 100 main_code 0 s00 = (RFail msg pos s', g) /\
              g_chain g = [ci_g; ci_main] /\ g_at g = Some i_fail).
  { vm_compute. do 4 eexists. repeat split; reflexivity. }
  destruct S as (msg & pos & s' & g & E & Hc & Ha). exists msg, pos, s', g. split; [exact E|].
  pose proof (c20_error_text my_grow my_get my_set my_len my_getattr my_setattr my_set_bt my_getattr_bt my_setattr_bt
                100%nat main_code 0 s00 eq_refl _ _ _ _ E) as K.
  assert (G : ghost_trace g = Some [mk_pos 1 4 9; mk_pos 2 5 4; mk_pos 3 9 4]).
  { unfold ghost_trace. rewrite Ha, Hc. reflexivity. }
  split; [exact K|]. split; [exact G|].
  rewrite G in K. injection K as Kp Kb. unfold err_trace. rewrite Kp, Kb. vm_compute. reflexivity.
Qed.

(* fuel exhaustion is NOT an RFail: it is RFuel, with g_at = None, and c20_bt_inv / c20_fail_pos / c20_error_text
   say nothing about it (fuel is a device of the model, not an error of the VM) *)
Lemma remark_fuel_is_not_fail :
  exists g, gexec0 9 main_code 0 [] [] s0 [c0] = (RFuel, g) /\ g_at g = None /\ g_chain g = [ci_g; ci_main; c0].
Proof. vm_compute. eexists. repeat split; reflexivity. Qed.

(* malformed code (POP on an empty operand stack, one call deep): RStuck, no ghost, theorems silent *)
Lemma remark_stuck_is_not_fail :
  exists w g, gexec0 100 [mkI c_GlobalGet 7 0 0 (mk_pos 3 9 2); ci_main] 0 [] [] s0 [c0] = (RStuck w, g) /\ g_at g = None.
Proof. vm_compute. do 2 eexists. split; reflexivity. Qed.

(* a native outside the print family: RUnmod, theorems silent (a panic inside such a native has no position in
   the model) *)
Lemma remark_native_is_unmodelled :
  exists w g, gexec0 100 [mkI c_GlobalGet 6 0 0 (mk_pos 3 9 2); ci_main] 0 [] [] s0 [c0] = (RUnmod w, g) /\ g_at g = None.
Proof. vm_compute. do 2 eexists. split; reflexivity. Qed.

(* the only failure of a modelled native (print family asked for a result): raised AT the call instruction;
   natives do not push a backtrace entry *)
Lemma nv_native_failure_positioned : exists msg pos s' g,
  gexec0 100 [mkI c_GlobalGet 5 0 0 (mk_pos 3 9 2); mkI c_Call 0 1 0 (mk_pos 3 9 4)] 0 [] [] s0 [c0] = (RFail msg pos s', g) /\
  pos = mk_pos 3 9 4 /\ g_chain g = [c0] /\ bt s' = [mk_pos 4 20 7].
Proof. vm_compute. do 4 eexists. repeat split; reflexivity. Qed.

(* a panic inside ext_set / ext_get / ext_setattr (oracle answers Some Panic) is an RFail positioned at the
   SET / GET / SETATTR instruction *)
Lemma nv_ext_panic_positioned :
  (exists s', exec0 5 [mkI c_Set 0 0 0 (mk_pos 1 3 4)] 0 [] [fn_Int 9; fn_Int 2; fn_Int 1] s0 = RFail "runtime error" (mk_pos 1 3 4) s') /\
  (exists s', exec0 5 [mkI c_Get 0 0 0 (mk_pos 1 3 5)] 0 [] [fn_Int 9; fn_Int 2] s0 = RFail "runtime error" (mk_pos 1 3 5) s') /\
  (exists s', exec0 5 [mkI c_SetAttr 7 0 0 (mk_pos 1 3 6)] 0 [] [fn_Int 9; fn_Int 2] s0 = RFail "runtime error" (mk_pos 1 3 6) s').
Proof. split; [|split]; vm_compute; eexists; reflexivity. Qed.

Lemma nv_c20_fail_pos_direct : forall f,
  exec0 (S f) body_f 8 [] [fn_newUntypedInt 5] s0 = RFail "runtime error" (mk_pos 1 4 9) s0.
Proof.
  intro f.
  exact (c20_fail_pos_direct my_grow my_get my_set my_len my_getattr my_setattr f body_f 8 [] [fn_newUntypedInt 5] s0
           i_fail "runtime error"%string s0 eq_refl eq_refl).
Qed.

(* the CALL of body_g, with f's function value on the operand stack: SCall, then call_fn = CErr (RFail ..) *)
Lemma nv_c20_fail_pos_propagates : exists r,
  call_fn0 50 true 0 0 0 (ipos ci_g) [] s0 = CErr r /\
  exec0 51 body_g 1 [] [refV TypeFunc 0] s0 = r /\
  exists msg s', r = RFail msg (mk_pos 1 4 9) s'.
Proof.
  assert (S : exists r, call_fn0 50 true 0 0 0 (ipos ci_g) [] s0 = CErr r /\ exists msg s', r = RFail msg (mk_pos 1 4 9) s').
  { vm_compute. eexists. split; [reflexivity|]. do 2 eexists. reflexivity. }
  destruct S as (r & E & Hr). exists r. split; [exact E|]. split; [|exact Hr].
  exact (c20_fail_pos_propagates my_grow my_get my_set my_len my_getattr my_setattr 50%nat body_g 1 [] [refV TypeFunc 0] s0
           ci_g true 0 0 0 [] [] s0 r eq_refl eq_refl E).
Qed.

(* through a call, right disjunct: the failure comes from the body (its position is not the call's), and the body is
   the one stored at address 1 of the heap of s0: body_g *)
Lemma nv_c20_fail_pos_through_call_body : exists msg pos s' g,
  call1 = (CErr (RFail msg pos s'), g) /\
  exists f' slots0 s1, 100%nat = S f' /\ bt s1 = bt s0 /\
    gexec0 f' body_g 0 slots0 [] (push_bt s1 (ipos ci_main)) (ci_main :: [c0]) = (RFail msg pos s', g).
Proof.
  destruct call1_shape as (msg & pos & s' & g & E & Hp & _ & _).
  exists msg, pos, s', g. split; [exact E|].
  destruct (c20_fail_pos_through_call my_grow my_get my_set my_len my_getattr my_setattr
              100%nat true 1 0 0 ci_main [] s0 [c0] msg pos s' g E) as [[_ [_ Hq]]|H].
  - exfalso. rewrite Hp in Hq. vm_compute in Hq. discriminate.
  - destruct H as (f' & na & nr & va & vt' & ns & ty & body & slots0 & s1 & Hf & Hh & Hb & Hg).
    change (hget s0 1) with (Some (HFunc 0 0 false 0 0 [] body_g)) in Hh. inversion Hh; subst body.
    exists f', slots0, s1. repeat split; assumption.
Qed.

(* through a call, left disjunct: wrong argument count, raised at the call instruction itself (the facts are
   computed; the theorem is applied to the same run) *)
Lemma nv_c20_fail_pos_through_call_boundary : exists msg pos s' g,
  gcall0 100 true 1 1 0 ci_main [fn_Int 1] s0 [c0] = (CErr (RFail msg pos s'), g) /\
  msg = "incorrect args"%string /\ g_chain g = [c0] /\ g_at g = Some ci_main /\ pos = ipos ci_main /\
  ((g_chain g = [c0] /\ g_at g = Some ci_main /\ pos = ipos ci_main) \/
   (exists f' nargs nrets variadic vtype nslots types body slots0 s1, 100%nat = S f' /\
      hget s0 1 = Some (HFunc nargs nrets variadic vtype nslots types body) /\ bt s1 = bt s0 /\
      gexec0 f' body 0 slots0 [] (push_bt s1 (ipos ci_main)) (ci_main :: [c0]) = (RFail msg pos s', g))).
Proof.
  assert (S : exists msg pos s' g, gcall0 100 true 1 1 0 ci_main [fn_Int 1] s0 [c0] = (CErr (RFail msg pos s'), g) /\
                msg = "incorrect args"%string /\ g_chain g = [c0] /\ g_at g = Some ci_main /\ pos = ipos ci_main).
  { vm_compute. do 4 eexists. repeat split; reflexivity. }
  destruct S as (msg & pos & s' & g & E & Hm & Hc & Ha & Hp). exists msg, pos, s', g.
  repeat (split; [assumption|]).
  exact (c20_fail_pos_through_call my_grow my_get my_set my_len my_getattr my_setattr
           100%nat true 1 1 0 ci_main [fn_Int 1] s0 [c0] msg pos s' g E).
Qed.

Definition r_dummy : rule := mkRule [] [] "" OZero OZero OZero 0.
Definition rule_k (k : nat) : rule := nth k peephole_rules r_dummy.
Lemma rule_k_in : forall k, (k < 16)%nat -> In (rule_k k) peephole_rules.
Proof. intros k H. apply nth_In. exact H. Qed.

(* how many rules c20_fuse_same_report covers *)
Lemma nv_early_quiet_count :
  List.length (filter early_quiet peephole_rules) = 14%nat /\ List.length peephole_rules = 16%nat /\
  map early_quiet peephole_rules =
    [false; true; true; true; true; true; true; true; true; false; true; true; true; true; true; true].
Proof. vm_compute. repeat split; reflexivity. Qed.

(* c20_fuse_same_report at the k-th rule of the table, for one execution from s0 *)
Lemma same_report_k k w sl ops p : (k < 16)%nat -> early_quiet (rule_k k) = true ->
  List.length w = rule_len (rule_k k) -> rule_matches (rule_k k) w = true ->
  wrep0 [] 0 w sl ops s0 = Some p -> p = ipos (fused (rule_k k) w).
Proof.
  intros Hk Hq Hl Hm.
  exact (c20_fuse_same_report my_grow my_get my_set my_len my_getattr my_setattr (rule_k k) (rule_k_in k Hk) Hq w Hl Hm
           [] 0 sl ops s0 p).
Qed.

Ltac one_line_tac w :=
  let i := fresh "i" in let j := fresh "j" in let Hi := fresh "Hi" in let Hj := fresh "Hj" in
  intros i j Hi Hj; unfold w in Hi, Hj; cbn [In] in Hi, Hj;
  intuition (subst; split; vm_compute; reflexivity).

(* rule 3: LOCALGET; LOCALGET; DIV -> LOCALDIV, failure case (division by zero) *)
Definition w_div : list instr :=
  [ mkI c_LocalGet 0 0 0 (mk_pos 2 7 3); mkI c_LocalGet 1 0 0 (mk_pos 2 7 7); mkI c_Div 0 0 0 (mk_pos 2 7 5) ].
(* the same window written on three lines *)
Definition w_div3 : list instr :=
  [ mkI c_LocalGet 0 0 0 (mk_pos 2 7 3); mkI c_LocalGet 1 0 0 (mk_pos 2 8 7); mkI c_Div 0 0 0 (mk_pos 2 9 5) ].
Definition sl_div : list value := [fn_Int 1; fn_Int 0].
Lemma w_div_one_line : one_line w_div.
Proof. one_line_tac w_div. Qed.
Lemma w_div_reports :
  wrep0 [] 0 w_div sl_div [] s0 = Some (mk_pos 2 7 5) /\ frep0 [] 0 (rule_k 3) w_div sl_div [] s0 = Some (mk_pos 2 7 5) /\
  rule_matches (rule_k 3) w_div = true /\ r_out (rule_k 3) = "codeLocalDiv"%string.
Proof. vm_compute. repeat split; reflexivity. Qed.
Lemma nv_c20_fuse_line_1 : same_line (mk_pos 2 7 5) (mk_pos 2 7 5).
Proof.
  destruct w_div_reports as (Hp & Hq & _).
  exact (c20_fuse_line my_grow my_get my_set my_len my_getattr my_setattr (rule_k 3) (rule_k_in 3 ltac:(lia)) w_div eq_refl
           w_div_one_line [] 0 0 sl_div [] s0 _ _ Hp Hq).
Qed.
(* c20_fuse_same_report on the three-line window: both modes report line 9 *)
Lemma nv_c20_fuse_same_report_1 :
  wrep0 [] 0 w_div3 sl_div [] s0 = Some (mk_pos 2 9 5) /\ mk_pos 2 9 5 = ipos (fused (rule_k 3) w_div3) /\
  frep0 [] 0 (rule_k 3) w_div3 sl_div [] s0 = Some (mk_pos 2 9 5).
Proof.
  repeat apply conj; [vm_compute; reflexivity | | vm_compute; reflexivity].
  apply (same_report_k 3 w_div3 sl_div []); [lia | vm_compute; reflexivity ..].
Qed.

(* rule 10: GLOBALGET; CALL -> FASTCALL, call case *)
Definition w_call : list instr := [ mkI c_GlobalGet 1 0 0 (mk_pos 3 9 2); mkI c_Call 0 0 0 (mk_pos 3 9 4) ].
Definition w_call2 : list instr := [ mkI c_GlobalGet 1 0 0 (mk_pos 3 9 2); mkI c_Call 0 0 0 (mk_pos 3 10 1) ].
Lemma w_call_one_line : one_line w_call.
Proof. one_line_tac w_call. Qed.
Lemma w_call_reports :
  wrep0 [] 0 w_call [] [] s0 = Some (mk_pos 3 9 4) /\ frep0 [] 0 (rule_k 10) w_call [] [] s0 = Some (mk_pos 3 9 4) /\
  rule_matches (rule_k 10) w_call = true /\ r_out (rule_k 10) = "codeFastCall"%string /\
  (exists sl ops s, step10 [] 0 (fused (rule_k 10) w_call) [] [] s0 = SCall true 1 0 0 sl ops s).
Proof. vm_compute. repeat split; try reflexivity. do 3 eexists. reflexivity. Qed.
Lemma nv_c20_fuse_line_2 : same_line (mk_pos 3 9 4) (mk_pos 3 9 4).
Proof.
  destruct w_call_reports as (Hp & Hq & _).
  exact (c20_fuse_line my_grow my_get my_set my_len my_getattr my_setattr (rule_k 10) (rule_k_in 10 ltac:(lia)) w_call eq_refl
           w_call_one_line [] 0 0 [] [] s0 _ _ Hp Hq).
Qed.
Lemma nv_c20_fuse_same_report_2 :
  wrep0 [] 0 w_call2 [] [] s0 = Some (mk_pos 3 10 1) /\ mk_pos 3 10 1 = ipos (fused (rule_k 10) w_call2).
Proof.
  split; [vm_compute; reflexivity|].
  apply (same_report_k 10 w_call2 [] []); [lia | vm_compute; reflexivity ..].
Qed.

(* rule 9 (early LOUD): LOCALGET; GETATTR; CALL -> FASTCALLATTR on one line *)
(* failure case: getIndex panics (attribute 7): unfused reports the GETATTR (column 10), fused the CALL (column 14):
   different positions, same line -- the conclusion of c20_fuse_line is not an identity here *)
Definition w_attr_fail : list instr :=
  [ mkI c_LocalGet 0 0 0 (mk_pos 2 5 9); mkI c_GetAttr 7 0 0 (mk_pos 2 5 10); mkI c_Call 0 0 0 (mk_pos 2 5 14) ].
(* call case: attribute 8 is a method *)
Definition w_attr_call : list instr :=
  [ mkI c_LocalGet 0 0 0 (mk_pos 2 5 9); mkI c_GetAttr 8 0 0 (mk_pos 2 5 10); mkI c_Call 0 0 0 (mk_pos 2 5 14) ].
Lemma w_attr_fail_one_line : one_line w_attr_fail.
Proof. one_line_tac w_attr_fail. Qed.
Lemma w_attr_call_one_line : one_line w_attr_call.
Proof. one_line_tac w_attr_call. Qed.
Lemma w_attr_reports :
  wrep0 [] 0 w_attr_fail [fn_Int 5] [] s0 = Some (mk_pos 2 5 10) /\
  frep0 [] 0 (rule_k 9) w_attr_fail [fn_Int 5] [] s0 = Some (mk_pos 2 5 14) /\
  wrep0 [] 0 w_attr_call [fn_Int 5] [] s0 = Some (mk_pos 2 5 14) /\
  frep0 [] 0 (rule_k 9) w_attr_call [fn_Int 5] [] s0 = Some (mk_pos 2 5 14) /\
  rule_matches (rule_k 9) w_attr_fail = true /\ rule_matches (rule_k 9) w_attr_call = true /\
  r_out (rule_k 9) = "codeFastCallAttr"%string /\ early_quiet (rule_k 9) = false.
Proof. vm_compute. repeat split; reflexivity. Qed.
Lemma nv_c20_fuse_line_3 : same_line (mk_pos 2 5 10) (mk_pos 2 5 14) /\ mk_pos 2 5 10 <> mk_pos 2 5 14.
Proof.
  destruct w_attr_reports as (Hp & Hq & _).
  split; [|vm_compute; discriminate].
  exact (c20_fuse_line my_grow my_get my_set my_len my_getattr my_setattr (rule_k 9) (rule_k_in 9 ltac:(lia)) w_attr_fail eq_refl
           w_attr_fail_one_line [] 0 0 [fn_Int 5] [] s0 _ _ Hp Hq).
Qed.
Lemma nv_c20_fuse_line_4 : same_line (mk_pos 2 5 14) (mk_pos 2 5 14).
Proof.
  destruct w_attr_reports as (_ & _ & Hp & Hq & _).
  exact (c20_fuse_line my_grow my_get my_set my_len my_getattr my_setattr (rule_k 9) (rule_k_in 9 ltac:(lia)) w_attr_call eq_refl
           w_attr_call_one_line [] 0 0 [fn_Int 5] [] s0 _ _ Hp Hq).
Qed.

(* rule 7: LOCALGET; PUSH; GET -> FASTGETINT, failure inside ext_get (key 9 panics) *)
Definition w_getint : list instr :=
  [ mkI c_LocalGet 0 0 0 (mk_pos 2 11 1); mkI c_Push 9 0 0 (mk_pos 2 12 3); mkI c_Get 0 0 0 (mk_pos 2 13 2) ].
Lemma nv_c20_fuse_same_report_3 :
  wrep0 [] 0 w_getint [fn_Int 5] [] s0 = Some (mk_pos 2 13 2) /\ mk_pos 2 13 2 = ipos (fused (rule_k 7) w_getint) /\
  frep0 [] 0 (rule_k 7) w_getint [fn_Int 5] [] s0 = Some (mk_pos 2 13 2) /\ r_out (rule_k 7) = "codeFastGetInt"%string.
Proof.
  repeat apply conj; [vm_compute; reflexivity | | vm_compute; reflexivity ..].
  apply (same_report_k 7 w_getint [fn_Int 5] []); [lia | vm_compute; reflexivity ..].
Qed.

(* rule 12: LOCALGET; SETATTR -> FASTSETATTR, failure inside ext_setattr (attribute 7 panics) *)
Definition w_setattr : list instr := [ mkI c_LocalGet 0 0 0 (mk_pos 2 15 1); mkI c_SetAttr 7 0 0 (mk_pos 2 16 3) ].
Lemma nv_c20_fuse_same_report_4 :
  wrep0 [] 0 w_setattr [fn_Int 5] [fn_Int 1] s0 = Some (mk_pos 2 16 3) /\ mk_pos 2 16 3 = ipos (fused (rule_k 12) w_setattr) /\
  frep0 [] 0 (rule_k 12) w_setattr [fn_Int 5] [fn_Int 1] s0 = Some (mk_pos 2 16 3) /\ r_out (rule_k 12) = "codeFastSetAttr"%string.
Proof.
  repeat apply conj; [vm_compute; reflexivity | | vm_compute; reflexivity ..].
  apply (same_report_k 12 w_setattr [fn_Int 5] [fn_Int 1]); [lia | vm_compute; reflexivity ..].
Qed.

(* c20_fuse_line_static and c20_fuse_pos_last on the loud one-line window *)
Lemma nv_c20_fuse_line_static :
  same_line (ipos (fused (rule_k 9) w_attr_fail)) (ipos (win w_attr_fail 1)) /\
  ipos (fused (rule_k 9) w_attr_fail) = mk_pos 2 5 14 /\ ipos (win w_attr_fail 1) = mk_pos 2 5 10.
Proof.
  split; [|split; reflexivity].
  exact (c20_fuse_line_static (rule_k 9) (rule_k_in 9 ltac:(lia)) w_attr_fail eq_refl w_attr_fail_one_line 1%nat ltac:(cbn; lia)).
Qed.
Lemma nv_c20_fuse_pos_last : ipos (fused (rule_k 3) w_div3) = mk_pos 2 9 5.
Proof. rewrite (c20_fuse_pos_last (rule_k 3) (rule_k_in 3 ltac:(lia)) w_div3 eq_refl). reflexivity. Qed.

(* the first "early loud" rule is loud only syntactically *)
(* INCDEC never fails in the model (Proofs/C20_fuse.v incdec_never_panics), so for LOCALGET; INCDEC; LOCALSET the
   unfused window never reports anything: the theorem c20_fuse_localincdec_silent of Props/C20.v, and the
   comment of c20_fuse_early_loud_rules says so.  Witness: rule 0 IS the LOCALINCDEC rule, a matching window x++ on a string-typed slot (the "non-numeric
   operand") runs through silently, and the theorem applies to it. *)
Definition w_incdec : list instr :=
  [mkI c_LocalGet 0 0 0 (mk_pos 2 7 1); mkI c_IncDec 1 0 0 (mk_pos 2 7 2); mkI c_LocalSet 0 0 0 (mk_pos 2 8 1)].
Lemma nv_c20_fuse_localincdec_silent :
  r_out (rule_k 0) = "codeLocalIncDec"%string /\ rule_matches (rule_k 0) w_incdec = true /\
  wrep0 [] 0 w_incdec [fn_String [97]] [] s0 = None /\
  (forall slots ops s, window_report my_grow my_get my_set my_len my_getattr my_setattr [] 0 w_incdec slots ops s = None).
Proof.
  split; [reflexivity|]. split; [vm_compute; reflexivity|]. split; [vm_compute; reflexivity|].
  intros slots ops s.
  exact (c20_fuse_localincdec_silent my_grow my_get my_set my_len my_getattr my_setattr (rule_k 0) (rule_k_in 0 ltac:(lia))
           eq_refl w_incdec eq_refl ltac:(vm_compute; reflexivity) [] 0 slots ops s).
Qed.

Definition e1 : instr := mkI c_Push 1 0 0 0.
Definition e2 : instr := mkI c_Push 2 0 0 0.
Definition e3 : instr := mkI c_Add 0 0 0 0.
Definition e4 : instr := mkI c_Pop 0 0 0 0.
Definition e5 : instr := mkI c_Return 0 0 0 0.
Definition tree3 : tree :=
  Node (mk_pos 1 10 1)
    [ Emit e4;
      Sub (Node (mk_pos 1 11 2) [ Sub (Node (mk_pos 1 12 3) [Emit e1; Emit e2]); Emit e3;
                                  Sub (Node (mk_pos 1 13 4) [Emit e1]) ]);
      Emit e5 ].
Lemma tree3_wf : wf tree3.
Proof. cbn. repeat split; try reflexivity; vm_compute; discriminate. Qed.
Lemma nv_c20_stamp :
  map ipos (compile tree3) = [mk_pos 1 10 1; mk_pos 1 12 3; mk_pos 1 12 3; mk_pos 1 11 2; mk_pos 1 13 4; mk_pos 1 10 1] /\
  map icode (compile tree3) = [c_Pop; c_Push; c_Push; c_Add; c_Push; c_Return] /\
  Forall (fun i => ipos i <> 0) (compile tree3).
Proof.
  destruct (c20_stamp tree3 tree3_wf) as [H1 H2].
  split; [rewrite H1; reflexivity|]. split; [reflexivity | exact H2].
Qed.
(* wf is a real restriction: a freshly emitted instruction that already carries a position is kept as it is,
   and the conclusion of c20_stamp fails for it *)
Lemma remark_stamp_wf_needed :
  let t := Node (mk_pos 1 10 1) [Emit (mkI c_Pop 0 0 0 (mk_pos 9 99 9))] in
  ~ wf t /\ map ipos (compile t) <> origins t.
Proof. cbn. split; [intros [_ [H _]]; vm_compute in H; discriminate | vm_compute; discriminate]. Qed.

Print Assumptions nv_c20_bt_inv.
Print Assumptions nv_c20_error_text.
Print Assumptions nv_c20_fuse_line_3.
Print Assumptions nv_c20_fuse_same_report_3.
Print Assumptions nv_c20_stamp.
Print Assumptions nv_c20_fuse_localincdec_silent.
