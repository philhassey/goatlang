(* NV_C07C02 -- the theorems of Props/C07.v and Props/C02.v applied to concrete witnesses.
   Shared non-trivial oracles (a map backed by the globals, a struct with a method, a logging field and a panicking field),
   then Module M07 (C07) and Module M02 (C02).  Everything Qed; no axioms beyond Coq's primitive float/int63 (which the
   theorems themselves depend on through the [value] type). *)
From Coq Require Import ZArith List String Bool Lia Floats.
From GV Require Import GoSpec.GoPrim Gen.ValueOps_gen Gen.Tables_gen Model.PeepTypes Model.VM Model.StackCheck Model.Peephole
  Gen.Steps_gen Proofs.C07_step Proofs.C07_sound Proofs.C02_rules Proofs.Steps_agree Props.C07 Props.C02.
Import ListNotations.
Open Scope string_scope.
Open Scope Z_scope.

Definition my_grow (cap need : Z) : Z := 2 * need + 1.
Definition mapT : Z := fn_mapType TypeInt32 TypeInt32.
Definition structT : Z := fn_structType 5.
Definition mapV : value := refV mapT 1000.
Definition structV : value := refV structT 1001.
Definition is_map (r : value) : bool := Type_base (vt r) =? TypeMap.
Definition is_struct (r : value) : bool := Type_base (vt r) =? TypeStruct.

(* a "map" whose cells are the globals: m[k] reads global k, m[k] = v writes global k and logs k *)
Definition my_get (s : st) (r k : value) : option (res value) :=
  if is_map r then
    match znth (globals s) (Value_Int k) with Some v => Some (Ok v) | None => Some Panic end
  else None.
Definition my_set (s : st) (r k v : value) : option (res st) :=
  if is_map r then
    if Value_Int k <? 0 then Some Panic
    else Some (Ok (emit (set_global s (Value_Int k) v) [Value_Int k]))
  else None.
Definition my_len (s : st) (r : value) : option Z := if is_map r then Some (zlen (globals s)) else None.
(* a "struct": field 0 is a method (the function object at heap address 0), field 1 panics,
   field k returns k and logs it *)
Definition my_getattr (s : st) (r : value) (k : Z) : option (res (value * st)) :=
  if is_struct r then
    if k =? 0 then Some (Ok (refV TypeFunc 0, s))
    else if k =? 1 then Some Panic
    else Some (Ok (fn_Int k, emit s [k]))
  else None.
Definition my_setattr (s : st) (r : value) (k : Z) (v : value) : option (res st) :=
  if is_struct r then Some (Ok (fst (alloc s (HArr [v; fn_Int k])))) else None.


Module M07.

Lemma my_set_ok ng : forall s r k v s', st_ok ng s -> my_set s r k v = Some (Ok s') -> st_ok ng s'.
Proof.
  intros s r k v s' H E. unfold my_set in E. destruct (is_map r); [|discriminate].
  destruct (Value_Int k <? 0); [discriminate|]. injection E as <-.
  apply st_ok_emit, st_ok_set_global, H.
Qed.
Lemma my_getattr_ok ng : forall s r k v s', st_ok ng s -> my_getattr s r k = Some (Ok (v, s')) -> st_ok ng s'.
Proof.
  intros s r k v s' H E. unfold my_getattr in E. destruct (is_struct r); [|discriminate].
  destruct (k =? 0). { injection E as _ <-. exact H. }
  destruct (k =? 1); [discriminate|]. injection E as _ <-. apply st_ok_emit, H.
Qed.
Lemma my_setattr_ok ng : forall s r k v s', st_ok ng s -> my_setattr s r k v = Some (Ok s') -> st_ok ng s'.
Proof.
  intros s r k v s' H E. unfold my_setattr in E. destruct (is_struct r); [|discriminate].
  injection E as <-. apply st_ok_alloc; [exact H | exact I].
Qed.
(* the oracles are not the constant-None oracle: they really change the state *)
Lemma my_oracles_nontrivial :
  let s := mkSt [nilV; nilV; nilV] [] [] [] in
  my_set s mapV (fn_Int 2) (fn_Int 7) = Some (Ok (mkSt [nilV; nilV; fn_Int 7] [] [2] [])) /\
  my_get (mkSt [nilV; nilV; fn_Int 7] [] [2] []) mapV (fn_Int 2) = Some (Ok (fn_Int 7)) /\
  my_getattr s structV 5 = Some (Ok (fn_Int 5, mkSt [nilV; nilV; nilV] [] [5] [])) /\
  my_setattr s structV 5 nilV = Some (Ok (mkSt [nilV; nilV; nilV] [HArr [nilV; fn_Int 5]] [] [])).
Proof. vm_compute. repeat split; reflexivity. Qed.

Notation exec := (VM.exec my_grow my_get my_set my_len my_getattr my_setattr).
Notation call_fn := (VM.call_fn my_grow my_get my_set my_len my_getattr my_setattr).
Notation run := (VM.run my_grow my_get my_set my_len my_getattr my_setattr).

Definition sound ng := c07_sound my_grow my_get my_set my_len my_getattr my_setattr ng (my_set_ok ng) (my_getattr_ok ng) (my_setattr_ok ng).
Definition depth ng := c07_depth my_grow my_get my_set my_len my_getattr my_setattr ng (my_set_ok ng) (my_getattr_ok ng) (my_setattr_ok ng).
Definition runT ng := c07_run my_grow my_get my_set my_len my_getattr my_setattr ng (my_set_ok ng) (my_getattr_ok ng) (my_setattr_ok ng).
Definition frame ng := c07_frame my_grow my_get my_set my_len my_getattr my_setattr ng (my_set_ok ng) (my_getattr_ok ng) (my_setattr_ok ng).

(* program 1: c07_ex of Props/C07.v *)
Definition good := c07_ex (mkI c_LocalGet 0 0 0 0).
Definition s0 := mkSt [nilV; nilV; nilV] [] [] [].
Lemma good_checked : check_code 3 0 (Some 0) good = true. Proof. vm_compute. reflexivity. Qed.
Lemma s0_ok : st_ok 3 s0.
Proof. apply c07_init; [vm_compute; discriminate | constructor]. Qed.

(* the body of f, as a script function object *)
Definition fbody : list instr := firstn 24 (skipn 4 good).
Definition fobj : hobj := HFunc 1 2 false 0 3 [23; 23; 23] fbody.
Lemma fobj_ok : obj_ok 4 fobj /\ obj_ok 3 fobj.
Proof.
  split; cbn; (repeat split; try lia; try discriminate); exists 30%nat; vm_compute; reflexivity.
Qed.


(* c07_sound / c07_depth / c07_run on c07_ex with the non-trivial oracles *)
Lemma nv_c07_sound_1 : forall fuel w, exec fuel good 0 [] [] s0 = RStuck w -> heap_reason w.
Proof. intros fuel w. exact (sound 3 0 (Some 0) good fuel [] s0 w good_checked eq_refl s0_ok). Qed.

Lemma nv_c07_depth_1 :
  exists slots' ops' s', exec 1000 good 0 [] [] s0 = RDone slots' ops' s' /\
    map Value_Int (tl (globals s')) = [6; 4] /\ List.length (heap s') = 1%nat /\
    (zlen slots' = 0 /\ st_ok 3 s' /\ (forall n, Some 0 = Some n -> zlen ops' = n) /\
     exists pcx, 0 <= pcx <= zlen good /\ is_exit good pcx /\ depth_at good pcx = Some (zlen ops')).
Proof.
  destruct (exec 1000 good 0 [] [] s0) as [sl op s'| | | |] eqn:E;
    try (exfalso; vm_compute in E; discriminate).
  exists sl, op, s'. split; [reflexivity|].
  pose proof (depth 3 0 (Some 0) good 1000%nat [] s0 sl op s' good_checked eq_refl s0_ok E) as H.
  vm_compute in E. injection E as <- <- <-. repeat split; try reflexivity; apply H.
Qed.

Lemma nv_c07_run_1 :
  exists slots' s', run 1000 good 0 s0 = RDone slots' [] s' /\ zlen slots' = 0 /\ st_ok 3 s' /\
                    exists f, heap s' = [f] /\ obj_ok 3 f /\ match f with HFunc _ _ _ _ _ _ _ => True | _ => False end.
Proof.
  pose proof (runT 3 0 good 1000%nat s0 good_checked s0_ok) as H.
  destruct (run 1000 good 0 s0) as [sl op s'| | | |] eqn:E; try (exfalso; vm_compute in E; discriminate).
  destruct H as (-> & Hs & Hst). exists sl, s'. repeat split; try assumption; try apply Hst.
  vm_compute in E. injection E as <- <-. eexists. split; [reflexivity|]. split; [|exact I].
  destruct Hst as [_ Hh]. inversion Hh; subst. assumption.
Qed.

(* program 2: containers through ext_*, method call through ext_getattr *)
(* ng = 4, ns = 2.  globals: [map; struct; nil; nil]; heap: [f] (the script function of program 1). *)
Definition s2 : st := mkSt [mapV; structV; nilV; nilV] [fobj] [] [].
Lemma s2_ok : st_ok 4 s2.
Proof. split; [vm_compute; discriminate|]. constructor; [apply fobj_ok | constructor]. Qed.

Definition prog2 : list instr :=
  [ mkI c_GlobalGet 0 0 0 1; mkI c_LocalSet 0 0 0 1;               (* slot0 = the map *)
    mkI c_GlobalGet 1 0 0 2; mkI c_LocalSet 1 0 0 2;               (* slot1 = the struct *)
    mkI c_Push 5 0 0 3; mkI c_LocalGet 0 0 0 3; mkI c_Push 2 0 0 3; mkI c_Set 0 0 0 3;   (* m[2] = 5   (ext_set) *)
    mkI c_LocalGet 0 0 0 4; mkI c_Push 2 0 0 4; mkI c_Get 0 0 0 4;                       (* m[2]       (ext_get) *)
    mkI c_LocalGet 0 0 0 4; mkI c_Len 0 0 0 4; mkI c_Add 0 0 0 4;                        (* + len(m)   (ext_len) *)
    mkI c_FastSetInt 0 3 0 5;                                                            (* m[3] = .   (fused form) *)
    mkI c_FastGetInt 0 3 0 6; mkI c_Pop 0 0 0 6;
    mkI c_Push 9 0 0 7; mkI c_LocalGet 1 0 0 7; mkI c_SetAttr 7 0 0 7;                   (* s.f7 = 9   (ext_setattr) *)
    mkI c_LocalGet 1 0 0 8; mkI c_GetAttr 8 0 0 8; mkI c_Pop 0 0 0 8;                    (* s.f8       (ext_getattr) *)
    mkI c_Push 4 0 0 9; mkI c_LocalGet 1 0 0 9; mkI c_GetAttr 0 0 0 9; mkI c_Call 1 2 0 9;  (* s.f0(4): script function call *)
    mkI c_Pop 0 0 0 9; mkI c_Pop 0 0 0 9;
    mkI c_Push 3 0 0 10; mkI c_FastCallAttr 1 0 (joinParams 1 1) 10; mkI c_Pop 0 0 0 10 ].  (* fused method call, 1 result *)
Lemma prog2_checked : check_code 4 2 (Some 0) prog2 = true. Proof. vm_compute. reflexivity. Qed.

Lemma nv_c07_sound_2 : forall fuel w, run fuel prog2 2 s2 = RStuck w -> heap_reason w.
Proof. intros fuel w. exact (sound 4 2 (Some 0) prog2 fuel [nilV; nilV] s2 w prog2_checked eq_refl s2_ok). Qed.


Lemma nv_c07_run_2 :
  exists slots' s', run 1000 prog2 2 s2 = RDone slots' [] s' /\
     out s' = [2; 3; 8] /\ map Value_Int (skipn 2 (globals s')) = [5; 9] /\ List.length (heap s') = 2%nat /\
     zlen slots' = 2 /\ st_ok 4 s'.
Proof.
  pose proof (runT 4 2 prog2 1000%nat s2 prog2_checked s2_ok) as H.
  destruct (run 1000 prog2 2 s2) as [sl op s'| | | |] eqn:E; try (exfalso; vm_compute in E; discriminate).
  destruct H as (-> & Hs & Hst). exists sl, s'. split; [reflexivity|].
  vm_compute in E. injection E as <- <-. repeat split; try reflexivity; apply Hst.
Qed.
Lemma nv_c07_depth_2 :
  exists slots' ops' s', exec 1000 prog2 0 [nilV; nilV] [] s2 = RDone slots' ops' s' /\
    (zlen slots' = 2 /\ st_ok 4 s' /\ (forall n, Some 0 = Some n -> zlen ops' = n) /\
     exists pcx, 0 <= pcx <= zlen prog2 /\ is_exit prog2 pcx /\ depth_at prog2 pcx = Some (zlen ops')).
Proof.
  destruct (exec 1000 prog2 0 [nilV; nilV] [] s2) as [sl op s'| | | |] eqn:E;
    try (exfalso; vm_compute in E; discriminate).
  exists sl, op, s'. split; [reflexivity|].
  exact (depth 4 2 (Some 0) prog2 1000%nat [nilV; nilV] s2 sl op s' prog2_checked eq_refl s2_ok E).
Qed.
(* final = None (no constraint on the exit depth) and an exit through RETURN with operands left *)
Definition prog3 : list instr := [ mkI c_Push 1 0 0 0; mkI c_Push 2 0 0 0; mkI c_Return 0 0 0 0 ].
Lemma nv_c07_depth_3 :
  check_code 0 0 None prog3 = true /\ check_code 0 0 (Some 0) prog3 = false /\
  exists ops' s', exec 10 prog3 0 [] [] (mkSt [] [] [] []) = RDone [] ops' s' /\ zlen ops' = 2 /\
     exists pcx, 0 <= pcx <= zlen prog3 /\ is_exit prog3 pcx /\ depth_at prog3 pcx = Some (zlen ops').
Proof.
  assert (C : check_code 0 0 None prog3 = true) by (vm_compute; reflexivity).
  assert (S : st_ok 0 (mkSt [] [] [] [])) by (split; [vm_compute; discriminate | constructor]).
  split; [exact C|]. split; [vm_compute; reflexivity|].
  destruct (exec 10 prog3 0 [] [] (mkSt [] [] [] [])) as [sl op s'| | | |] eqn:E;
    try (exfalso; vm_compute in E; discriminate).
  pose proof (depth 0 0 None prog3 10%nat [] _ sl op s' C eq_refl S E) as H.
  vm_compute in E. injection E as <- <- <-. eexists; eexists. split; [reflexivity|]. split; [reflexivity|]. apply H.
Qed.

(* RStuck IS possible for checked code: the premise of c07_sound is satisfiable *)
(* GLOBALFUNC re-assigning a global whose function value points outside the heap *)
Definition prog_stuck : list instr := [ mkI c_GlobalGet 0 0 0 0; mkI c_GlobalFunc 0 0 0 0 ].
Definition s_dangling : st := mkSt [refV TypeFunc 7] [] [] [].
Lemma nv_c07_sound_stuck :
  check_code 1 0 (Some 0) prog_stuck = true /\ st_ok 1 s_dangling /\
  exec 10 prog_stuck 0 [] [] s_dangling = RStuck "func object" /\ heap_reason "func object".
Proof.
  assert (C : check_code 1 0 (Some 0) prog_stuck = true) by (vm_compute; reflexivity).
  assert (S : st_ok 1 s_dangling) by (split; [vm_compute; discriminate | constructor]).
  assert (E : exec 10 prog_stuck 0 [] [] s_dangling = RStuck "func object") by (vm_compute; reflexivity).
  repeat split; try assumption; try apply S.
  exact (sound 1 0 (Some 0) prog_stuck 10%nat [] s_dangling _ C eq_refl S E).
Qed.

(* heap_reason is exactly the two heap reasons: every other RStuck/SStuck string of Model/VM.v is excluded *)
Definition other_stuck_reasons : list string :=
  ["POP"; "binary operator"; "local slot"; "INCDEC"; "CONVERT"; "CAST"; "NEGATE"; "BITCOMPLEMENT"; "NOT"; "AND"; "OR";
   "GLOBALSET"; "global index"; "GLOBALFUNC"; "LOCALSET"; "JUMPFALSE"; "JUMPTRUE"; "PANIC"; "FUNC body"; "CALL";
   "GET"; "SET"; "FASTSETINT"; "FASTSET"; "GETATTR"; "SETATTR"; "FASTSETATTR"; "LEN"; "NEWSLICE"; "MAKE"; "RANGE";
   "SLICE"; "APPEND without operands"; "APPEND"; "COPY"; "native arguments"; "variadic arguments"; "arguments"].
Lemma nv_heap_reason_tight : Forall (fun w => ~ heap_reason w) other_stuck_reasons.
Proof. repeat constructor; intros [H|H]; discriminate H. Qed.
(* fuel exhaustion is its own constructor: exec with fuel 0 is RFuel, never RDone *)
Lemma nv_fuel_separate : forall codes pc sl op s, exec 0 codes pc sl op s = RFuel.
Proof. reflexivity. Qed.
(* an unchecked program IS stuck on a stack access in the model (so c07_sound is not true of all code) *)
Lemma nv_unchecked_stuck :
  check_code 0 0 (Some 0) [mkI c_Pop 0 0 0 0] = false /\ exec 10 [mkI c_Pop 0 0 0 0] 0 [] [] (mkSt [] [] [] []) = RStuck "POP".
Proof. vm_compute. split; reflexivity. Qed.

(* REMARK (weaker than it may read): creation of maps/structs (NEWMAP, STRUCT, NEWSTRUCT, GETOK, DELETE, SETMETHOD,
   GLOBALSTRUCT) is accepted by the checker but is RUnmod in the model: the C07 theorems say nothing about what
   happens after the first such instruction (the [| _ => True] branch of c07_run) *)
Lemma nv_c07_unmod :
  check_code 0 0 (Some 0) [mkI c_NewMap 0 0 0 0; mkI c_Pop 0 0 0 0] = true /\
  run 10 [mkI c_NewMap 0 0 0 0; mkI c_Pop 0 0 0 0] 0 (mkSt [] [] [] []) = RUnmod "opcode".
Proof. vm_compute. split; reflexivity. Qed.

(* (a) script function object on the heap *)
Lemma nv_c07_frame_script :
  exists ops' s', call_fn 1000 true 0 1 2 77 [fn_Int 4; fn_Int 99] s2 = COk ops' s' /\
    map Value_Int ops' = [4; 6; 99] /\
    st_ok 4 s' /\ exists results, zlen results = 2 /\ ops' = (results ++ skipn (Z.to_nat 1) [fn_Int 4; fn_Int 99])%list.
Proof.
  assert (Hxa : 0 <= 1 <= zlen [fn_Int 4; fn_Int 99]) by (vm_compute; split; discriminate).
  pose proof (frame 4 1000%nat true 0 1 2 77 [fn_Int 4; fn_Int 99] s2 s2_ok Hxa ltac:(lia)) as H.
  destruct (call_fn 1000 true 0 1 2 77 [fn_Int 4; fn_Int 99] s2) as [o s'|r] eqn:E; [|exfalso; vm_compute in E; discriminate].
  exists o, s'. split; [reflexivity|]. split; [|exact H].
  vm_compute in E. injection E as <- _. reflexivity.
Qed.
(* (b) variadic script function: func(xs ...int) int { return len(xs) } called with 3 arguments *)
Definition vbody : list instr := [ mkI c_LocalGet 0 0 0 0; mkI c_Len 0 0 0 0; mkI c_Return 1 0 0 0 ].
Definition vobj : hobj := HFunc 1 1 true (fn_sliceType 23) 1 [fn_sliceType 23; 23] vbody.
Definition s3 : st := mkSt [nilV] [HNative "builtin.println"; vobj; fobj; HOpaque] [] [].
Lemma s3_ok : st_ok 1 s3.
Proof.
  split; [vm_compute; discriminate|]. constructor; [exact I|]. constructor.
  { cbn. repeat split; try lia. exists 10%nat. vm_compute. reflexivity. }
  constructor. { cbn. repeat split; try lia; try discriminate. exists 30%nat. vm_compute. reflexivity. }
  constructor; [exact I | constructor].
Qed.
Definition ops3 : list value := [fn_Int 1; fn_Int 2; fn_Int 3; fn_Int 99].
Lemma nv_c07_frame_variadic :
  exists ops' s', call_fn 1000 true 1 3 1 77 ops3 s3 = COk ops' s' /\
    map Value_Int ops' = [3; 99] /\ List.length (heap s') = 6%nat /\
    st_ok 1 s' /\ exists results, zlen results = 1 /\ ops' = (results ++ skipn (Z.to_nat 3) ops3)%list.
Proof.
  assert (Hxa : 0 <= 3 <= zlen ops3) by (vm_compute; split; discriminate).
  pose proof (frame 1 1000%nat true 1 3 1 77 ops3 s3 s3_ok Hxa ltac:(lia)) as H.
  destruct (call_fn 1000 true 1 3 1 77 ops3 s3) as [o s'|r] eqn:E; [|exfalso; vm_compute in E; discriminate].
  exists o, s'. split; [reflexivity|]. split; [|split; [|exact H]];
  vm_compute in E; injection E as <- <-; reflexivity.
Qed.
(* (c) native of the print family *)
Lemma nv_c07_frame_native :
  exists ops' s', call_fn 1000 true 0 2 0 77 ops3 s3 = COk ops' s' /\
    map Value_Int ops' = [3; 99] /\ out s' = [50; 32; 49; 10] /\
    st_ok 1 s' /\ exists results, zlen results = 0 /\ ops' = (results ++ skipn (Z.to_nat 2) ops3)%list.
Proof.
  assert (Hxa : 0 <= 2 <= zlen ops3) by (vm_compute; split; discriminate).
  pose proof (frame 1 1000%nat true 0 2 0 77 ops3 s3 s3_ok Hxa ltac:(lia)) as H.
  destruct (call_fn 1000 true 0 2 0 77 ops3 s3) as [o s'|r] eqn:E; [|exfalso; vm_compute in E; discriminate].
  exists o, s'. split; [reflexivity|]. split; [|split; [|exact H]];
  vm_compute in E; injection E as <- <-; reflexivity.
Qed.
(* (d) the error branches: wrong argument count, non-function object, and the reason the premise
   0 <= xa <= zlen ops is needed (without it call_fn is stuck on a stack access) *)
Lemma nv_c07_frame_errors :
  call_fn 1000 true 2 2 2 77 ops3 s3 = CErr (RFail "incorrect args" 77 s3) /\
  call_fn 1000 true 3 0 0 77 ops3 s3 = CErr (RFail "interface conversion" 77 s3) /\
  call_fn 1000 true 2 1 2 77 [] s3 = CErr (RStuck "arguments") /\ ~ heap_reason "arguments".
Proof. repeat split; try (vm_compute; reflexivity). intros [H|H]; discriminate H. Qed.

Lemma nv_c07_init :
  st_ok 2 (mkSt [nilV; fn_Int 3; refV TypeFunc 0] [HNative "builtin.println"; HArr [fn_Int 1]; HSlice 23 1 0 1 1; HOpaque] [10] [4]).
Proof. apply c07_init; [vm_compute; discriminate | repeat constructor]. Qed.
(* ... and c07_init is not the only way to get st_ok: s2, s3 hold HFunc objects (s2_ok, s3_ok) *)

End M07.

Module M02.

Lemma my_get_key : forall s r k k', vnum k = vnum k' -> vval k = vval k' -> my_get s r k = my_get s r k'.
Proof. intros s r k k' Hn Hv. unfold my_get, Value_Int. rewrite Hn. reflexivity. Qed.
Lemma my_set_key : forall s r k k' v, vnum k = vnum k' -> vval k = vval k' -> my_set s r k v = my_set s r k' v.
Proof. intros s r k k' v Hn Hv. unfold my_set, Value_Int. rewrite Hn. reflexivity. Qed.
(* the oracle does depend on the key *)
Lemma my_get_depends_on_key :
  let s := mkSt [fn_Int 10; fn_Int 11] [] [] [] in
  my_get s mapV (fn_Int 0) = Some (Ok (fn_Int 10)) /\ my_get s mapV (fn_Int 1) = Some (Ok (fn_Int 11)) /\
  my_get s mapV (fn_Int 2) = Some Panic.
Proof. vm_compute. repeat split; reflexivity. Qed.

Notation step1 := (VM.step1 my_grow my_get my_set my_len my_getattr my_setattr).
Notation run_window := (C02_rules.run_window my_grow my_get my_set my_len my_getattr my_setattr).
Notation exec := (VM.exec my_grow my_get my_set my_len my_getattr my_setattr).
Definition rules := c02_rules my_grow my_get my_set my_len my_getattr my_setattr.

Definition dr : rule := mkRule [] [] "" OZero OZero OZero 0.
Definition R (k : nat) : rule := nth k peephole_rules dr.
Lemma len_rules : List.length peephole_rules = 16%nat. Proof. reflexivity. Qed.
Ltac in_rules := unfold R; apply nth_In; rewrite len_rules; lia.

Definition sA : st := mkSt [fn_Int 10; fn_Int 11; fn_Int 12; refV TypeFunc 0] [M07.fobj] [] [].


Ltac nv_rule k G :=
  split; [exact G|]; split; [vm_compute; reflexivity|]; split; [|vm_compute; reflexivity];
  apply (rules (R k)); [in_rules | reflexivity | vm_compute; reflexivity | exact G].

(* rule 0: LOCALGET a; INCDEC n; LOCALSET a -> LOCALINCDEC a n   (guard: the slot is numeric) *)
Definition w0 := [mkI c_LocalGet 0 0 0 1; mkI c_IncDec 1 0 0 2; mkI c_LocalSet 0 0 0 3].
Lemma nv_c02_rules_localincdec :
  guard (R 0) w0 [fn_Int 41] [] = true /\
  run_window [] 5 w0 [fn_Int 41] [] sA = SNext [fn_Int 42] [] sA /\
  sres_equiv (run_window [] 5 w0 [fn_Int 41] [] sA) (step1 [] 9 (fused (R 0) w0) [fn_Int 41] [] sA) /\
  step1 [] 9 (fused (R 0) w0) [fn_Int 41] [] sA = SNext [fn_Int 42] [] sA.
Proof.
  assert (G : guard (R 0) w0 [fn_Int 41] [] = true) by (vm_compute; reflexivity). nv_rule 0%nat G.
Qed.
(* the guard is false for a non-numeric slot (c02_rules is silent there) *)
Lemma nv_c02_guard_localincdec_false : guard (R 0) w0 [fn_String [65]] [] = false.
Proof. vm_compute. reflexivity. Qed.

(* rule 7: LOCALGET a; PUSH n; GET -> FASTGETINT a n, on the oracle map (reads global 2) *)
Definition w7 := [mkI c_LocalGet 0 0 0 1; mkI c_Push 2 0 0 2; mkI c_Get 0 0 0 3].
Lemma nv_c02_rules_fastgetint_ext :
  guard (R 7) w7 [mapV] [] = true /\
  run_window [] 5 w7 [mapV] [] sA = SNext [mapV] [fn_Int 12] sA /\
  sres_equiv (run_window [] 5 w7 [mapV] [] sA) (step1 [] 9 (fused (R 7) w7) [mapV] [] sA) /\
  step1 [] 9 (fused (R 7) w7) [mapV] [] sA = SNext [mapV] [fn_Int 12] sA.
Proof.
  assert (G : guard (R 7) w7 [mapV] [] = true) by (vm_compute; reflexivity). nv_rule 7%nat G.
Qed.
(* the same rule on a modelled slice []int{10,20,30} *)
Definition sS : st := mkSt [] [HArr [fn_Int 10; fn_Int 20; fn_Int 30]; HSlice 23 0 0 3 3] [] [].
Definition sliceV : value := refV (fn_sliceType 23) 1.
Lemma nv_c02_rules_fastgetint_slice :
  guard (R 7) w7 [sliceV] [] = true /\
  run_window [] 5 w7 [sliceV] [] sS = SNext [sliceV] [fn_Int 30] sS /\
  sres_equiv (run_window [] 5 w7 [sliceV] [] sS) (step1 [] 9 (fused (R 7) w7) [sliceV] [] sS) /\
  step1 [] 9 (fused (R 7) w7) [sliceV] [] sS = SNext [sliceV] [fn_Int 30] sS.
Proof.
  assert (G : guard (R 7) w7 [sliceV] [] = true) by (vm_compute; reflexivity). nv_rule 7%nat G.
Qed.
(* a failing window: index out of range -> the same SFail on both sides *)
Definition w7' := [mkI c_LocalGet 0 0 0 1; mkI c_Push 3 0 0 2; mkI c_Get 0 0 0 3].
Lemma nv_c02_rules_fastgetint_fail :
  guard (R 7) w7' [sliceV] [] = true /\
  run_window [] 5 w7' [sliceV] [] sS = SFail "runtime error" sS /\
  sres_equiv (run_window [] 5 w7' [sliceV] [] sS) (step1 [] 9 (fused (R 7) w7') [sliceV] [] sS) /\
  step1 [] 9 (fused (R 7) w7') [sliceV] [] sS = SFail "runtime error" sS.
Proof.
  assert (G : guard (R 7) w7' [sliceV] [] = true) by (vm_compute; reflexivity). nv_rule 7%nat G.
Qed.

(* rule 8: LOCALGET a; PUSH n; SET -> FASTSETINT a n, on the oracle map (writes global 2, logs 2) *)
Definition w8 := [mkI c_LocalGet 0 0 0 1; mkI c_Push 2 0 0 2; mkI c_Set 0 0 0 3].
Lemma nv_c02_rules_fastsetint :
  guard (R 8) w8 [mapV] [fn_Int 5; fn_Int 99] = true /\
  run_window [] 5 w8 [mapV] [fn_Int 5; fn_Int 99] sA = SNext [mapV] [fn_Int 99] (emit (set_global sA 2 (fn_Int 5)) [2]) /\
  sres_equiv (run_window [] 5 w8 [mapV] [fn_Int 5; fn_Int 99] sA) (step1 [] 9 (fused (R 8) w8) [mapV] [fn_Int 5; fn_Int 99] sA) /\
  step1 [] 9 (fused (R 8) w8) [mapV] [fn_Int 5; fn_Int 99] sA = SNext [mapV] [fn_Int 99] (emit (set_global sA 2 (fn_Int 5)) [2]).
Proof.
  assert (G : guard (R 8) w8 [mapV] [fn_Int 5; fn_Int 99] = true) by (vm_compute; reflexivity). nv_rule 8%nat G.
Qed.

(* rule 9: LOCALGET a; GETATTR f; CALL n m -> FASTCALLATTR a f join(n, m): a call request on the method *)
Definition w9 := [mkI c_LocalGet 0 0 0 1; mkI c_GetAttr 0 0 0 2; mkI c_Call 1 2 0 3].
Lemma nv_c02_rules_fastcallattr :
  guard (R 9) w9 [structV] [fn_Int 4] = true /\
  run_window [] 5 w9 [structV] [fn_Int 4] sA = SCall true 0 1 2 [structV] [fn_Int 4] sA /\
  sres_equiv (run_window [] 5 w9 [structV] [fn_Int 4] sA) (step1 [] 9 (fused (R 9) w9) [structV] [fn_Int 4] sA) /\
  step1 [] 9 (fused (R 9) w9) [structV] [fn_Int 4] sA = SCall true 0 1 2 [structV] [fn_Int 4] sA.
Proof.
  assert (G : guard (R 9) w9 [structV] [fn_Int 4] = true) by (vm_compute; reflexivity). nv_rule 9%nat G.
Qed.
(* with an attribute read that changes the state (field 5: logs 5, returns the non-function 5) *)
Definition w9' := [mkI c_LocalGet 0 0 0 1; mkI c_GetAttr 5 0 0 2; mkI c_Call 1 2 0 3].
Lemma nv_c02_rules_fastcallattr_2 :
  guard (R 9) w9' [structV] [fn_Int 4] = true /\
  run_window [] 5 w9' [structV] [fn_Int 4] sA = SFail "interface conversion" (emit sA [5]) /\
  sres_equiv (run_window [] 5 w9' [structV] [fn_Int 4] sA) (step1 [] 9 (fused (R 9) w9') [structV] [fn_Int 4] sA) /\
  step1 [] 9 (fused (R 9) w9') [structV] [fn_Int 4] sA = SFail "interface conversion" (emit sA [5]).
Proof.
  assert (G : guard (R 9) w9' [structV] [fn_Int 4] = true) by (vm_compute; reflexivity). nv_rule 9%nat G.
Qed.

(* rule 10: GLOBALGET g; CALL -> FASTCALL *)
Definition w10 := [mkI c_GlobalGet 3 0 0 1; mkI c_Call 1 2 0 3].
Lemma nv_c02_rules_fastcall :
  guard (R 10) w10 [] [fn_Int 4] = true /\
  run_window [] 5 w10 [] [fn_Int 4] sA = SCall true 0 1 2 [] [fn_Int 4] sA /\
  sres_equiv (run_window [] 5 w10 [] [fn_Int 4] sA) (step1 [] 9 (fused (R 10) w10) [] [fn_Int 4] sA) /\
  step1 [] 9 (fused (R 10) w10) [] [fn_Int 4] sA = SCall true 0 1 2 [] [fn_Int 4] sA.
Proof.
  assert (G : guard (R 10) w10 [] [fn_Int 4] = true) by (vm_compute; reflexivity). nv_rule 10%nat G.
Qed.

(* rule 13: PUSH n; ADD -> INCDEC n, negative n on a typed integer *)
Definition w13 := [mkI c_Push (-3) 0 0 1; mkI c_Add 0 0 0 2].
Lemma nv_c02_rules_incdec_add :
  guard (R 13) w13 [] [fn_Int 10] = true /\
  run_window [] 5 w13 [] [fn_Int 10] sA = SNext [] [fn_Int 7] sA /\
  sres_equiv (run_window [] 5 w13 [] [fn_Int 10] sA) (step1 [] 9 (fused (R 13) w13) [] [fn_Int 10] sA) /\
  step1 [] 9 (fused (R 13) w13) [] [fn_Int 10] sA = SNext [] [fn_Int 7] sA.
Proof.
  assert (G : guard (R 13) w13 [] [fn_Int 10] = true) by (vm_compute; reflexivity). nv_rule 13%nat G.
Qed.
(* rule 14: PUSH n; SUB -> INCDEC (-n), on a float64 operand 2.5 *)
Definition w14 := [mkI c_Push 3 0 0 1; mkI c_Sub 0 0 0 2].
Definition f25 : value := mkValue TypeFloat64 (Fn 2.5%float) PNone.
Lemma nv_c02_rules_incdec_sub :
  guard (R 14) w14 [] [f25] = true /\
  run_window [] 5 w14 [] [f25] sA = SNext [] [mkValue TypeFloat64 (Fn (-0.5)%float) PNone] sA /\
  sres_equiv (run_window [] 5 w14 [] [f25] sA) (step1 [] 9 (fused (R 14) w14) [] [f25] sA) /\
  step1 [] 9 (fused (R 14) w14) [] [f25] sA = SNext [] [mkValue TypeFloat64 (Fn (-0.5)%float) PNone] sA.
Proof.
  assert (G : guard (R 14) w14 [] [f25] = true) by (vm_compute; reflexivity). nv_rule 14%nat G.
Qed.
(* where the guard of the INCDEC rules is FALSE although the optimizer fires: negative constant on a float64 or on an
   untyped constant operand (c02_rules is silent there; Proofs/C02_rules.v c02_rule_sound_ieee covers it) *)
Lemma nv_c02_guard_incdec_false :
  rule_matches (R 13) w13 = true /\ guard (R 13) w13 [] [f25] = false /\ guard (R 13) w13 [] [fn_newUntypedInt 10] = false /\
  run_window [] 5 w13 [] [f25] sA = step1 [] 9 (fused (R 13) w13) [] [f25] sA.
Proof. vm_compute. repeat split; reflexivity. Qed.

(* where a FALSE guard hides a genuine difference (documented in the comment of c02_rules): x++ on a local holding a string
   (the window re-tags through LOCALSET, LOCALINCDEC does not).  The other candidate, PUSH 0; SUB on the float64 -0.0
   (-0.0 - 0 = -0.0 but incDec(0) = +0.0), is NOT fused: the generated rule carries the side condition "constant <> 0" *)
Definition w14z := [mkI c_Push 0 0 0 1; mkI c_Sub 0 0 0 2].
Lemma remark_c02_guard_false_differs :
  rule_matches (R 0) w0 = true /\ guard (R 0) w0 [fn_String [65]] [] = false /\
  ~ sres_equiv (run_window [] 5 w0 [fn_String [65]] [] sA) (step1 [] 9 (fused (R 0) w0) [fn_String [65]] [] sA) /\
  rule_matches (R 14) w14z = false /\ first_match peephole_rules w14z = None.
Proof.
  split; [vm_compute; reflexivity|]. split; [vm_compute; reflexivity|]. split.
  - assert (E1 : run_window [] 5 w0 [fn_String [65]] [] sA = SNext [mkValue TypeInt32 (Zn 1) PNone] [] sA) by (vm_compute; reflexivity).
    assert (E2 : step1 [] 9 (fused (R 0) w0) [fn_String [65]] [] sA = SNext [mkValue untypedInt (Zn 1) PNone] [] sA) by (vm_compute; reflexivity).
    rewrite E1, E2. intros [H | (sl & op & s & [[H1 H2] | [H1 H2]])]; discriminate.
  - vm_compute. split; reflexivity.
Qed.

(* rule 15: JUMP 0 -> PASS: the only use of the second disjunct of sres_equiv *)
Definition w15 := [mkI c_Jump 0 0 0 1].
Lemma nv_c02_rules_jump0 :
  guard (R 15) w15 [] [] = true /\
  run_window [] 5 w15 [] [] sA = SJump 0 [] [] sA /\
  sres_equiv (run_window [] 5 w15 [] [] sA) (step1 [] 9 (fused (R 15) w15) [] [] sA) /\
  step1 [] 9 (fused (R 15) w15) [] [] sA = SNext [] [] sA.
Proof.
  assert (G : guard (R 15) w15 [] [] = true) by (vm_compute; reflexivity). nv_rule 15%nat G.
Qed.

(* c02_guards_satisfiable: instantiated at every rule (it has no premises beyond membership) -- note that its generic witness
   (all operands 0, one int32 slot, one int32 operand) makes the GET/SET/ATTR/CALL windows fail or be stuck on both sides;
   the lemmas above give executing witnesses for 8 of the 16 rules *)
Lemma nv_c02_guards_satisfiable : forall k, (k < 16)%nat ->
  exists w slots ops, List.length w = rule_len (R k) /\ rule_matches (R k) w = true /\ guard (R k) w slots ops = true.
Proof.
  intros k Hk. apply c02_guards_satisfiable. in_rules.
Qed.

(* what sres_equiv identifies: nothing but SJump 0 ~ SNext *)
Lemma nv_sres_equiv_strict :
  ~ sres_equiv (SFail "a" sA) (SFail "b" sA) /\                         (* messages are compared *)
  ~ sres_equiv (SFail "a" sA) (SFail "a" (emit sA [1])) /\              (* states are compared *)
  ~ sres_equiv (SStuck "a") (SStuck "b") /\                             (* even stuck diagnostics are compared *)
  ~ sres_equiv (SNext [] [] sA) (SNext [] [fn_Int 1] sA) /\
  ~ sres_equiv (SJump 1 [] [] sA) (SNext [] [] sA).
Proof.
  repeat split; intros [H | (sl & op & s & [[H1 H2] | [H1 H2]])]; discriminate.
Qed.
(* REMARK: sres carries no source position.  exec attaches [ipos] of the instruction that fails, and the fused
   instruction carries the position of the LAST window instruction; when an EARLIER window instruction fails (GETATTR in
   LOCALGET;GETATTR;CALL), the unoptimized and optimized RUNS differ in the error position although c02_rules holds. *)
Definition w9p := [mkI c_LocalGet 0 0 0 1; mkI c_GetAttr 1 0 0 2; mkI c_Call 1 2 0 3].
Lemma remark_c02_rules_position :
  rule_matches (R 9) w9p = true /\ guard (R 9) w9p [structV] [fn_Int 4] = true /\
  exec 10 w9p 0 [structV] [fn_Int 4] sA = RFail "runtime error" 2 sA /\
  exec 10 [fused (R 9) w9p] 0 [structV] [fn_Int 4] sA = RFail "runtime error" 3 sA.
Proof. vm_compute. repeat split; reflexivity. Qed.

(* opt_rel is the graph of do_optimize (deterministic) *)
Lemma nv_opt_rel_exact : forall code out, opt_rel peephole_rules code out -> out = do_optimize peephole_rules code.
Proof.
  intros code out H. apply opt_rel_iff in H.
  exact (C02_fixpoint.opt_run_fun _ _ _ H _ (C02_fixpoint.opt_run_do_optimize _ C02_fixpoint.peephole_wf code)).
Qed.
(* so the identity is NOT allowed on a code that has a matching window, nor is arbitrary output *)
Definition codeX := [mkI c_Push 1 0 0 1; mkI c_LocalGet 0 0 0 2; mkI c_LocalGet 1 0 0 3; mkI c_Add 0 0 0 4; mkI c_Pop 0 0 0 5].
Lemma nv_c02_optimizer_shape :
  opt_rel peephole_rules codeX [mkI c_Push 1 0 0 1; mkI c_LocalAdd 0 1 0 4; mkI c_Pop 0 0 0 5] /\
  ~ opt_rel peephole_rules codeX codeX /\ ~ opt_rel peephole_rules codeX [].
Proof.
  assert (E : do_optimize peephole_rules codeX = [mkI c_Push 1 0 0 1; mkI c_LocalAdd 0 1 0 4; mkI c_Pop 0 0 0 5])
    by (vm_compute; reflexivity).
  split; [rewrite <- E; apply c02_optimizer_shape|].
  split; intro H; apply nv_opt_rel_exact in H; rewrite E in H; discriminate H.
Qed.
(* first matching rule wins: PUSH n; ADD could not be reached before LOCALGET;LOCALGET;ADD ... and rule order matters
   for LOCALGET a; PUSH n; ADD: rule 13 fires at the PUSH, not at the LOCALGET *)
Lemma nv_c02_first_match :
  do_optimize peephole_rules [mkI c_LocalGet 0 0 0 1; mkI c_Push 2 0 0 2; mkI c_Add 0 0 0 3] =
    [mkI c_LocalGet 0 0 0 1; mkI c_IncDec 2 0 0 3].
Proof. vm_compute. reflexivity. Qed.


(* c02_shape_meets_rules: in codeX the optimizer's fusion step at the suffix starting with LOCALGET 0 is an instance of c02_rules,
   executed.  The two premises on keys (my_get_key, my_set_key) are met by the oracle; the theorem does not use them. *)
Lemma nv_shape_meets_rules :
  let suffix := tl codeX in
  first_match peephole_rules suffix = Some (R 1) /\
  fused (R 1) (firstn 3 suffix) = fused (R 1) suffix /\
  sres_equiv (run_window [] 1 (firstn 3 suffix) [fn_Int 3; fn_Int 4] [] sA) (step1 [] 1 (fused (R 1) suffix) [fn_Int 3; fn_Int 4] [] sA) /\
  step1 [] 1 (fused (R 1) suffix) [fn_Int 3; fn_Int 4] [] sA = SNext [fn_Int 3; fn_Int 4] [fn_Int 7] sA.
Proof.
  cbv zeta.
  assert (F : first_match peephole_rules (tl codeX) = Some (R 1)) by (vm_compute; reflexivity).
  destruct (c02_shape_meets_rules my_grow my_get my_set my_len my_getattr my_setattr my_get_key my_set_key _ _ F)
    as (_ & _ & _ & Hf & Hs).
  split; [exact F|]. split; [exact Hf|]. split; [|vm_compute; reflexivity].
  apply Hs. vm_compute. reflexivity.
Qed.

(* REMARK: no theorem of Props/C02.v lifts the window equivalence to whole runs, and for ARBITRARY code it could not:
   do_optimize shrinks the list without touching relative jump operands (the compiler relies on optimizing each block
   before measuring jump distances).  A jump over a fusible window: *)
Definition codeJ := [mkI c_Jump 3 0 0 1; mkI c_LocalGet 0 0 0 2; mkI c_LocalGet 1 0 0 3; mkI c_Add 0 0 0 4; mkI c_Push 7 0 0 5].
Lemma remark_c02_not_whole_program :
  do_optimize peephole_rules codeJ = [mkI c_Jump 3 0 0 1; mkI c_LocalAdd 0 1 0 4; mkI c_Push 7 0 0 5] /\
  exec 10 codeJ 0 [fn_Int 1; fn_Int 2] [] sA = RDone [fn_Int 1; fn_Int 2] [fn_newUntypedInt 7] sA /\
  exec 10 (do_optimize peephole_rules codeJ) 0 [fn_Int 1; fn_Int 2] [] sA = RDone [fn_Int 1; fn_Int 2] [] sA.
Proof. vm_compute. repeat split; reflexivity. Qed.

Lemma nv_c02_steps_from_source :
  let i := mkI c_Add 0 0 0 7 in
  step_gen i [] [fn_Int 2; fn_Int 3] sA = Some (SNext [] [fn_Int 5] sA) /\
  sres_same (SNext [] [fn_Int 5] sA) (step1 [] 0 i [] [fn_Int 2; fn_Int 3] sA) /\
  step1 [] 0 i [] [fn_Int 2; fn_Int 3] sA = SNext [] [fn_Int 5] sA.
Proof.
  intro i. assert (E : step_gen i [] [fn_Int 2; fn_Int 3] sA = Some (SNext [] [fn_Int 5] sA)) by (vm_compute; reflexivity).
  split; [exact E|]. split; [|vm_compute; reflexivity].
  exact (c02_steps_from_source my_grow my_get my_set my_len my_getattr my_setattr [] 0 i [] _ sA _ E).
Qed.
(* a failing and a jumping instance: division by zero, JUMPFALSE taken *)
Lemma nv_c02_steps_from_source_2 :
  step_gen (mkI c_Div 0 0 0 7) [] [fn_Int 0; fn_Int 3] sA = Some (SFail "runtime error" sA) /\
  step1 [] 0 (mkI c_Div 0 0 0 7) [] [fn_Int 0; fn_Int 3] sA = SFail "runtime error" sA /\
  step_gen (mkI c_JumpFalse 4 0 0 7) [] [fn_Bool false] sA = Some (SJump 4 [] [] sA) /\
  step1 [] 0 (mkI c_JumpFalse 4 0 0 7) [] [fn_Bool false] sA = SJump 4 [] [] sA.
Proof. vm_compute. repeat split; reflexivity. Qed.
(* the only place where sres_same is used as more than equality: stuck diagnostics *)
Lemma nv_c02_steps_stuck :
  step_gen (mkI c_Pop 0 0 0 7) [] [] sA = Some (SStuck "operands") /\
  step1 [] 0 (mkI c_Pop 0 0 0 7) [] [] sA = SStuck "POP" /\
  sres_same (SStuck "operands") (SStuck "POP") /\
  sres_same (SStuck "operands") (SStuck "global index") /\
  ~ sres_same (SFail "a" sA) (SFail "b" sA) /\ ~ sres_same (SNext [] [] sA) (SJump 0 [] [] sA).
Proof.
  split; [vm_compute; reflexivity|]. split; [vm_compute; reflexivity|].
  split; [right; eauto|]. split; [right; eauto|].
  split; intros [H | (w1 & w2 & H1 & H2)]; discriminate.
Qed.
(* the premise is satisfiable exactly on the translated opcodes; it is None on the container/call opcodes *)
Lemma nv_c02_steps_cover :
  (forall slots ops s, step_gen (mkI c_LocalIncDec 0 1 0 0) slots ops s <> None) /\
  step_gen (mkI c_Get 0 0 0 0) [] [] sA = None /\ step_gen (mkI c_Call 0 0 0 0) [] [] sA = None /\
  step_gen (mkI c_FastGetInt 0 0 0 0) [] [] sA = None /\ step_gen (mkI c_GetAttr 0 0 0 0) [] [] sA = None.
Proof.
  split; [|vm_compute; repeat split; reflexivity].
  intros slots ops s. apply (proj2 (c02_steps_cover "codeLocalIncDec" ltac:(cbn; tauto))). reflexivity.
Qed.

End M02.

Print Assumptions M07.nv_c07_run_2.
Print Assumptions M02.nv_shape_meets_rules.
Print Assumptions M02.nv_c02_optimizer_shape.
