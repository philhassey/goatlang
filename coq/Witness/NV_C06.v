(* Witnesses for Props/C06.v.

   Props/C06.v has no Section, no Hypothesis; every premise is a premise of a theorem:
     c06_skeleton              exec_block orc fuel b tr0 = Some (out, tr')
     c06_statement             exec orc fuel s tr = Some (out, tr'),  0 <= p,  carries C p (compile L s) bt ct
     c06_rewrite               carries C p (rewrite brk cnt n0 c) bt ct,  rw_ok brk n0 p bt bt',  rw_ok cnt n0 p ct ct'
     c06_wf_no_placeholder     wf_block false false b = true,  In i (compile_ctl b)
     c06_no_fallthrough        o_cond orc tr0 g = true,  exec_block orc fuel body (EvCond g :: tr0) = Some (Normal, tr')
     c06_no_fallthrough_tagged o_tag orc tr0 k = g,      exec_block orc fuel body (EvTag k :: tr0) = Some (Normal, tr')
     c06_default_entered       no_match orc tagv cs tr1 = Some tr2,  exec_block orc fuel dflt tr2 = Some (Normal, tr')
   All witnesses below use a history-dependent oracle, a non-empty initial history, non-junk slots. *)
From Coq Require Import ZArith List Bool Lia.
From GV Require Import GoSpec.GoCtl Model.Ctl Proofs.C06_base Proofs.C06_ctl Proofs.C06_main Proofs.C06_wf Props.C06.
Import ListNotations.
Open Scope Z_scope.

(* an oracle whose answers depend on the history (number of c / rs / tg calls so far) and on k *)
Fixpoint ncalls (tr : trace) : Z :=
  match tr with [] => 0 | EvEmit _ :: r => ncalls r | _ :: r => ncalls r + 1 end.
Definition horc : oracle :=
  mkOracle (fun tr k => (((ncalls tr + 1) * (ncalls tr + 1) + k) * 3 mod 7) <? 4)
           (fun tr k => Z.to_nat ((ncalls tr + 1 + k) mod 3 + 1))
           (fun tr k => (ncalls tr + 1 + k) mod 4).
Definition tr0 : trace := [EvCond 77; EvEmit 5].
Definition s0 : nat -> sval := fun i => SInt (Z.of_nat i).

(* (1) c06_skeleton.  1a. fuel exhaustion of the Go-side evaluator is None, never an outcome *)
Lemma nv_exec_fuel0 : forall orc b tr, exec_block orc 0 b tr = None.
Proof. reflexivity. Qed.

(* `for {}` : None for EVERY fuel, so the premise of c06_skeleton is never met by a diverging run *)
Lemma nv_exec_for_diverges : forall orc f tr, exec_for orc f None None BNil tr = None.
Proof.
  induction f; intros tr; [reflexivity|]. rewrite exec_for_S. cbv zeta iota beta.
  destruct f; [reflexivity|]. rewrite exec_block_S. cbn [do_emit]. apply IHf.
Qed.
Lemma nv_exec_diverges : forall orc fuel tr,
  exec_block orc fuel (blk [Emit 1; For None None None BNil; Emit 2]) tr = None.
Proof.
  intros orc fuel tr. destruct fuel; [reflexivity|]. rewrite exec_block_S. cbn [blk].
  destruct fuel; [reflexivity|]. rewrite exec_S.
  destruct fuel; [reflexivity|]. rewrite exec_block_S.
  destruct fuel; [reflexivity|]. rewrite exec_S. cbn [do_emit].
  rewrite nv_exec_for_diverges. reflexivity.
Qed.
(* a diverging loop with a body: fuel runs out -> None (Go side), OutOfFuel (machine side) *)
Example nv_exec_diverges2 :
  let b := blk [For None None None (blk [Emit 2; If None 3 (blk [Continue]) BNil])] in
  exec_block horc 300 b tr0 = None /\
  run horc 300 (compile_ctl b) (mkCfg 0 tr0 [] s0) = OutOfFuel.
Proof. vm_compute. split; reflexivity. Qed.

(* 1b. the machine: Finished / Ret_at are never produced by fuel exhaustion or by a default *)
Lemma nv_run_fuel0 : forall orc C c, run orc 0 C c = OutOfFuel.
Proof. reflexivity. Qed.

Lemma nv_run_finished_inv : forall orc fuel C c t s,
  run orc fuel C c = Finished t s ->
  exists c', star orc C c c' /\ len C <= pc c' /\ ctr c' = t /\ stk c' = s.
Proof.
  induction fuel; intros C c t s H; [discriminate|]. cbn [run] in H.
  destruct (Z.leb_spec (len C) (pc c)).
  - inversion H; subst. exists c. repeat split; [constructor | assumption].
  - destruct (step orc C c) eqn:E; try discriminate.
    destruct (IHfuel _ _ _ _ H) as [c' [S R]]. exists c'. split; [econstructor; eauto | exact R].
Qed.

Lemma nv_step_returned_inv : forall orc C c c', step orc C c = Returned c' ->
  c' = c /\ exists n, fetch C (pc c) = Some (CReturn n).
Proof.
  intros orc C c c' E. unfold step in E. destruct (fetch C (pc c)) as [i|]; [|discriminate].
  destruct i;
    repeat match type of E with
           | context [match ?x with _ => _ end] => destruct x; try discriminate E
           | context [if ?x then _ else _] => destruct x; try discriminate E
           end; try discriminate E.
  inversion E; subst. eauto.
Qed.

Lemma nv_run_ret_inv : forall orc fuel C c p t s,
  run orc fuel C c = Ret_at p t s ->
  exists c', star orc C c c' /\ (exists n, fetch C (pc c') = Some (CReturn n)) /\ pc c' = p /\ ctr c' = t /\ stk c' = s.
Proof.
  induction fuel; intros C c p t s H; [discriminate|]. cbn [run] in H.
  destruct (Z.leb_spec (len C) (pc c)); [discriminate|].
  destruct (step orc C c) eqn:E; try discriminate.
  - destruct (IHfuel _ _ _ _ _ H) as [c' [S R]]. exists c'. split; [econstructor; eauto | exact R].
  - inversion H; subst. destruct (nv_step_returned_inv _ _ _ _ E) as [-> F].
    exists c. split; [constructor|]. auto.
Qed.

(* more fuel never changes a definite answer: the `exists mfuel` of c06_skeleton determines the result *)
Lemma nv_run_mono : forall orc fuel C c r, run orc fuel C c = r -> r <> OutOfFuel -> run orc (S fuel) C c = r.
Proof.
  induction fuel; intros C c r H N; [cbn in H; congruence|].
  cbn [run] in H. change (run orc (S (S fuel)) C c) with
    (if len C <=? pc c then Finished (ctr c) (stk c) else
     match step orc C c with Next c' => run orc (S fuel) C c' | Returned c' => Ret_at (pc c') (ctr c') (stk c') | Stuck => Error (pc c) end).
  destruct (len C <=? pc c); [exact H|].
  destruct (step orc C c); [apply IHfuel; assumption | exact H | exact H].
Qed.

(* machine side of `for {}`: OutOfFuel for every fuel, never Finished / Ret_at *)
Lemma nv_run_diverges : forall orc fuel tr st s,
  run orc fuel (compile_ctl (blk [For None None None BNil])) (mkCfg 0 tr st s) = OutOfFuel.
Proof. induction fuel; intros; [reflexivity|]. cbn [run]. cbn. apply IHfuel. Qed.

(* 1c. Normal outcome: nested range / tagged switch / for with init, cond, post / if-else chain /
        tagless multi-guard switch containing a range with break.  Theorem applied, and the concrete
        machine run agrees. *)
Definition prog1 : block :=
  blk [ Emit 100;
        Range 6 (blk [ Switch (Some 3) (css [(0, [1], blk [Emit 1; Continue]); (2, [], blk [Emit 2; Break; Emit 99])]) 1 (blk [Emit 3]);
                       For (Some 4) (Some 5) (Some 6)
                           (blk [If None 8 (blk [Emit 10; Break]) (blk [If (Some 11) 9 (blk [Continue]) BNil]); Emit 12]);
                       Emit 13 ]);
        Switch None (css [(20, [21; 22], blk [Range 23 (blk [Emit 24; If None 25 (blk [Break]) BNil])]); (26, [], blk [Emit 27])]) 0
               (blk [Emit 28]);
        Emit 29 ].
Definition trace1 : trace :=
  [EvEmit 29; EvCond 25; EvEmit 24; EvRange 23; EvCond 20; EvEmit 13; EvCond 5; EvEmit 4;
   EvEmit 2; EvTag 3; EvEmit 1; EvTag 3; EvEmit 13; EvEmit 10; EvCond 8; EvCond 5; EvEmit 4;
   EvEmit 2; EvTag 3; EvRange 6; EvEmit 100; EvCond 77; EvEmit 5].

Lemma nv_c06_skeleton_1 :
  exec_block horc 60 prog1 tr0 = Some (Normal, trace1) /\
  (exists mfuel, run horc mfuel (compile_ctl prog1) (mkCfg 0 tr0 [] s0) = Finished trace1 []) /\
  run horc 400 (compile_ctl prog1) (mkCfg 0 tr0 [] s0) = Finished trace1 [].
Proof.
  assert (E : exec_block horc 60 prog1 tr0 = Some (Normal, trace1)) by (vm_compute; reflexivity).
  split; [exact E|]. split.
  - exact (c06_skeleton horc prog1 60 tr0 s0 Normal trace1 E).
  - vm_compute; reflexivity.
Qed.

(* 1d. Ret outcome: return inside if inside default of a tagged switch inside range inside for,
        reached in the third iteration of the for loop *)
Definition prog2 : block :=
  blk [For (Some 1) (Some 3) (Some 3)
         (blk [Range 4 (blk [Switch (Some 7) (css [(0, [1], blk [Emit 10; Continue]); (2, [], blk [Emit 11; Break])]) 2
                                      (blk [If None 7 (blk [Emit 12; Return]) BNil]); Emit 13])]);
       Emit 14].
Definition trace2 : trace :=
  [EvEmit 12; EvCond 7; EvTag 7; EvRange 4; EvCond 3; EvEmit 3; EvEmit 10; EvTag 7; EvRange 4; EvCond 3; EvEmit 3;
   EvEmit 10; EvTag 7; EvEmit 13; EvCond 7; EvTag 7; EvRange 4; EvCond 3; EvEmit 1; EvCond 77; EvEmit 5].

Lemma nv_c06_skeleton_2 :
  exec_block horc 60 prog2 tr0 = Some (Ret, trace2) /\
  (exists mfuel p, run horc mfuel (compile_ctl prog2) (mkCfg 0 tr0 [] s0) = Ret_at p trace2 []) /\
  (exists p, run horc 400 (compile_ctl prog2) (mkCfg 0 tr0 [] s0) = Ret_at p trace2 [] /\
             fetch (compile_ctl prog2) p = Some (CReturn 0)).
Proof.
  assert (E : exec_block horc 60 prog2 tr0 = Some (Ret, trace2)) by (vm_compute; reflexivity).
  split; [exact E|]. split.
  - exact (c06_skeleton horc prog2 60 tr0 s0 Ret trace2 E).
  - vm_compute. eexists; split; reflexivity.
Qed.

(* 1e. the `Brk | Cont => True` branch.  It IS reachable from a top-level block (the theorem then
        says nothing, and the machine in fact fails on the un-rewritten placeholder) ... *)
Example nv_c06_skeleton_brk_reachable :
  let b := blk [Emit 1; If None 3 (blk [Break]) BNil; Emit 2] in
  wf_block false false b = false /\
  exec_block horc 10 b tr0 = Some (Brk, [EvCond 3; EvEmit 1; EvCond 77; EvEmit 5]) /\
  run horc 100 (compile_ctl b) (mkCfg 0 tr0 [] s0) = Error 7.
Proof. vm_compute. repeat split. Qed.
Example nv_c06_skeleton_cont_reachable :
  let b := blk [Switch None (css [(3, [], blk [Emit 1; Continue])]) 0 BNil; Emit 2] in
  wf_block false false b = false /\
  exec_block horc 10 b tr0 = Some (Cont, [EvEmit 1; EvCond 3; EvCond 77; EvEmit 5]) /\
  run horc 100 (compile_ctl b) (mkCfg 0 tr0 [] s0) = Error 7.
Proof. vm_compute. repeat split. Qed.

(* ... but ONLY for skeletons the Go compiler rejects: for a well-formed body the evaluator never
   yields Brk / Cont, so the True branch is dead for valid programs. *)
Definition okout (inl ins : bool) (o : outcome) : Prop :=
  match o with Brk => inl || ins = true | Cont => inl = true | _ => True end.

Lemma nv_wf_out_all : forall orc f,
  (forall s inl ins tr out tr', wf inl ins s = true -> exec orc f s tr = Some (out, tr') -> okout inl ins out) /\
  (forall b inl ins tr out tr', wf_block inl ins b = true -> exec_block orc f b tr = Some (out, tr') -> okout inl ins out) /\
  (forall cond post body tr out tr', exec_for orc f cond post body tr = Some (out, tr') -> out = Normal \/ out = Ret) /\
  (forall n body tr out tr', exec_range orc f n body tr = Some (out, tr') -> out = Normal \/ out = Ret) /\
  (forall tag cs dflt inl tr out tr', wf_cases inl true cs = true -> wf_block inl true dflt = true ->
     exec_cases orc f tag cs dflt tr = Some (out, tr') -> okout inl true out).
Proof.
  intros orc. induction f as [|f [IHs [IHb [IHf [IHr IHc]]]]]; [repeat split; intros; discriminate|].
  repeat split.
  - intros s inl ins tr out tr' W E. rewrite exec_S in E.
    destruct s; cbn [wf] in W; try (injection E as <- _; first [exact W | exact I]).
    + apply andb_true_iff in W as [W1 W2]. destruct (o_cond orc (do_emit init tr) c); (eapply IHb; [|exact E]; assumption).
    + destruct (IHf _ _ _ _ _ _ E) as [-> | ->]; exact I.
    + destruct (IHr _ _ _ _ _ E) as [-> | ->]; exact I.
    + apply andb_true_iff in W as [W1 W2]. cbv zeta in E.
      (* the switch turns a break of its cases into a normal end *)
      assert (X : forall r, (forall o t, r = Some (o, t) -> okout inl true o) ->
                   match r with Some (Brk, t) => Some (Normal, t) | _ => r end = Some (out, tr') -> okout inl ins out).
      { intros r H. destruct r as [[[] t]|]; intros E'; inversion E'; subst; try exact I.
        exact (H Cont tr' eq_refl). }
      destruct tag; eapply X; try exact E; intros o t Er; eapply IHc; eauto.
  - intros b inl ins tr out tr' W E. rewrite exec_block_S in E. destruct b; cbn [wf_block] in W.
    + injection E as <- _. exact I.
    + apply andb_true_iff in W as [W1 W2].
      destruct (exec orc f s tr) as [[[] t]|] eqn:E1; try discriminate; [eapply IHb; eauto|..].
      all: injection E as <- _; eapply IHs; eauto.
  - intros cond post body tr out tr' E. rewrite exec_for_S in E.
    destruct (match cond with None => (true, tr) | Some c => (o_cond orc tr c, EvCond c :: tr) end) as [[] tr1];
      [|injection E as <- _; auto].
    destruct (exec_block orc f body tr1) as [[[] t]|]; try discriminate;
      try (eapply IHf; eassumption); injection E as <- _; auto.
  - intros n body tr out tr' E. rewrite exec_range_S in E. destruct n; [injection E as <- _; auto|].
    destruct (exec_block orc f body tr) as [[[] t]|]; try discriminate;
      try (eapply IHr; eassumption); injection E as <- _; auto.
  - intros tag cs dflt inl tr out tr' W1 W2 E. rewrite exec_cases_S in E. destruct cs; [eapply IHb; eauto|].
    cbn [wf_cases] in W1. apply andb_true_iff in W1 as [Wa Wb].
    destruct (eval_guards orc tag (g :: gs) tr) as [[] tr1];
      [eapply IHb; [|exact E]; assumption | eapply IHc; [| |exact E]; assumption].
Qed.

Lemma nv_wf_top_outcome : forall orc b fuel tr out tr',
  wf_block false false b = true -> exec_block orc fuel b tr = Some (out, tr') -> out = Normal \/ out = Ret.
Proof.
  intros orc b fuel tr out tr' W E. destruct (nv_wf_out_all orc fuel) as [_ [Hb _]].
  specialize (Hb b false false tr out tr' W E). destruct out; cbn in Hb; auto; discriminate.
Qed.

(* hence, for well-formed skeletons, c06_skeleton always delivers one of its two informative branches *)
Lemma nv_c06_skeleton_wf : forall orc b fuel tr0 s0 out tr',
  wf_block false false b = true -> exec_block orc fuel b tr0 = Some (out, tr') ->
  (out = Normal /\ exists mfuel, run orc mfuel (compile_ctl b) (mkCfg 0 tr0 [] s0) = Finished tr' []) \/
  (out = Ret /\ exists mfuel p, run orc mfuel (compile_ctl b) (mkCfg 0 tr0 [] s0) = Ret_at p tr' []).
Proof.
  intros orc b fuel t0 sl0 out tr' W E.
  pose proof (c06_skeleton orc b fuel t0 sl0 out tr' E) as H.
  destruct (nv_wf_top_outcome orc b fuel t0 out tr' W E) as [-> | ->]; [left | right]; split; auto.
Qed.

(* (3) c06_rewrite  and  (2) c06_statement, on one enclosing program
       emit(0); for range rs(1) { S2; emit(6) }; emit(7)
       S2 = if emit(8); c(2) { for range rs(3) { emit(5) }; break }
            else { switch tg(4) { case 1, 2: emit(11); continue  default: emit(9) } } *)
Definition S2 : stmt :=
  If (Some 8) 2 (blk [Range 3 (blk [Emit 5]); Break])
                (blk [Switch (Some 4) (css [(1, [2], blk [Emit 11; Continue])]) 0 (blk [Emit 9])]).
Definition body2 : block := blk [S2; Emit 6].
Definition E2 : block := blk [Emit 0; Range 1 body2; Emit 7].
Definition C2 : code := compile_ctl E2.

Ltac carries_tac :=
  repeat (apply carries_cons; split; [vm_compute; first [reflexivity | exact I] | ]); apply carries_nil.

(* the statement-level code really contains both placeholders, and the program really contains jumps there *)
Example nv_S2_shape :
  nth_error (compile 2 S2) 15 = Some CBreak /\ nth_error (compile 2 S2) 32 = Some CContinue /\
  fetch C2 (7 + 15) = Some (CJump 25) /\ fetch C2 (7 + 32) = Some (CJump 7) /\
  fetch C2 47 = Some (CIter 0 1 1 (-41)) /\ len (compile 2 S2) = 37 /\ len C2 = 51.
Proof. vm_compute. repeat split. Qed.

(* (3) the range's rewriting loop: both functions total (something IS rewritten: indices 15 and 32),
   outer targets None (function body), new targets 48 (after ITER) and 47 (the ITER). *)
Definition blk2 : code := compile_block 2 body2.
Definition brk2 : Z -> option Z := fun n => Some (len blk2 - n).
Definition cnt2 : Z -> option Z := fun n => Some (len blk2 - n - 1).

Lemma nv_c06_rewrite_prem1 : carries C2 7 (rewrite brk2 cnt2 0 blk2) None None.
Proof. vm_compute rewrite. carries_tac. Qed.
Lemma nv_c06_rewrite_prem2 : rw_ok brk2 0 7 None (Some 48).
Proof. apply (rw_ok_some (fun n => len blk2 - n)). intros i Hi. change (len blk2) with 40. lia. Qed.
Lemma nv_c06_rewrite_prem3 : rw_ok cnt2 0 7 None (Some 47).
Proof. apply (rw_ok_some (fun n => len blk2 - n - 1)). intros i Hi. change (len blk2) with 40. lia. Qed.
Example nv_c06_rewrite_changes :
  rewrite brk2 cnt2 0 blk2 <> blk2 /\
  nth_error (rewrite brk2 cnt2 0 blk2) 15 = Some (CJump 25) /\ nth_error (rewrite brk2 cnt2 0 blk2) 32 = Some (CJump 7).
Proof. vm_compute. repeat split. intros H; discriminate H. Qed.

Lemma nv_c06_rewrite : carries C2 7 blk2 (Some 48) (Some 47).
Proof.
  exact (c06_rewrite blk2 C2 7 0 brk2 cnt2 None None (Some 48) (Some 47)
           nv_c06_rewrite_prem1 nv_c06_rewrite_prem2 nv_c06_rewrite_prem3).
Qed.

(* the second disjunct of rw_ok (a switch leaves CONTINUE alone: cnt = fun _ => None, the outer continue
   target 37 is kept), combined with a rewriting break function of the shape compile_cases uses
   (len cs0 - n + len out + ldef with len out = 3, ldef = 4): a case block `emit(11); break; continue`
   sitting at position 2 of a program in which the outer loop already wrote its jump for the continue *)
Lemma nv_c06_rewrite_2 :
  let cs0 := compile_block 5 (blk [Emit 11; Break; Continue]) in
  let C := [CPush 0; CPush 0] ++ [CPush 11; CGet FEmit; CCall 1 0; CJump 9; CJump 30] in
  carries C 2 cs0 (Some 15) (Some 37).
Proof.
  cbv zeta.
  apply (c06_rewrite _ _ 2 0 (fun n => Some (len (compile_block 5 (blk [Emit 11; Break; Continue])) - n + 3 + 4)) (fun _ => None)
           (Some 99) (Some 37) (Some 15) (Some 37)).
  - vm_compute rewrite. carries_tac.
  - apply (rw_ok_some (fun n => _ - n + 3 + 4)). intros i Hi. change (len (compile_block 5 (blk [Emit 11; Break; Continue]))) with 5. lia.
  - apply rw_ok_none.
Qed.

(* (2) premise of c06_statement, obtained from the conclusion of c06_rewrite: non-trivial C, p = 7 > 0,
   L = 2, bt = Some 48, ct = Some 47 *)
Lemma nv_c06_statement_prem : carries C2 7 (compile 2 S2) (Some 48) (Some 47).
Proof.
  pose proof nv_c06_rewrite as H. unfold blk2, body2 in H. cbn [blk compile_block] in H.
  apply carries_app in H. exact (proj1 H).
Qed.

(* the three histories at which S2 is entered in the actual run of E2 from [] under horc *)
Definition h1 : trace := [EvRange 1; EvEmit 0].
Definition h2 : trace := [EvEmit 6; EvEmit 9; EvTag 4; EvCond 2; EvEmit 8] ++ h1.
Definition h3 : trace := [EvEmit 11; EvTag 4; EvCond 2; EvEmit 8] ++ h2.
Example nv_E2_run :
  exec_block horc 40 E2 [] = Some (Normal, [EvEmit 7; EvEmit 5; EvEmit 5; EvRange 3; EvCond 2; EvEmit 8] ++ h3) /\
  o_len horc [EvEmit 0] 1 = 3%nat.
Proof. vm_compute. split; reflexivity. Qed.

Definition stk2 : list sval := [SInt 42; SBool true].

(* Normal: the machine reaches exactly the end of the statement's code (7 + 37 = 44), stack restored,
   slots 0 and 1 (the enclosing range's iterator and key/value) untouched *)
Lemma nv_c06_statement_normal : forall sl,
  exists s', star horc C2 (mkCfg 7 h1 stk2 sl) (mkCfg 44 ([EvEmit 9; EvTag 4; EvCond 2; EvEmit 8] ++ h1) stk2 s') /\
             forall i, (i < 2)%nat -> s' i = sl i.
Proof.
  intros sl.
  assert (E : exec horc 20 S2 h1 = Some (Normal, [EvEmit 9; EvTag 4; EvCond 2; EvEmit 8] ++ h1)) by (vm_compute; reflexivity).
  exact (c06_statement horc 20 S2 h1 Normal _ E C2 7 2%nat (Some 48) (Some 47) stk2 sl ltac:(lia) nv_c06_statement_prem).
Qed.

(* Cont: exactly the continue target 47 (the ITER of the enclosing range) *)
Lemma nv_c06_statement_cont : forall sl,
  exists s', star horc C2 (mkCfg 7 h2 stk2 sl) (mkCfg 47 ([EvEmit 11; EvTag 4; EvCond 2; EvEmit 8] ++ h2) stk2 s') /\
             forall i, (i < 2)%nat -> s' i = sl i.
Proof.
  intros sl.
  assert (E : exec horc 20 S2 h2 = Some (Cont, [EvEmit 11; EvTag 4; EvCond 2; EvEmit 8] ++ h2)) by (vm_compute; reflexivity).
  exact (c06_statement horc 20 S2 h2 Cont _ E C2 7 2%nat (Some 48) (Some 47) stk2 sl ltac:(lia) nv_c06_statement_prem).
Qed.

(* Brk: exactly the break target 48 (just after the ITER), after the inner range loop ran twice *)
Lemma nv_c06_statement_brk : forall sl,
  exists s', star horc C2 (mkCfg 7 h3 stk2 sl) (mkCfg 48 ([EvEmit 5; EvEmit 5; EvRange 3; EvCond 2; EvEmit 8] ++ h3) stk2 s') /\
             forall i, (i < 2)%nat -> s' i = sl i.
Proof.
  intros sl.
  assert (E : exec horc 20 S2 h3 = Some (Brk, [EvEmit 5; EvEmit 5; EvRange 3; EvCond 2; EvEmit 8] ++ h3)) by (vm_compute; reflexivity).
  exact (c06_statement horc 20 S2 h3 Brk _ E C2 7 2%nat (Some 48) (Some 47) stk2 sl ltac:(lia) nv_c06_statement_prem).
Qed.

(* Ret at statement level: a return inside a loop body statement carried by a program *)
Lemma nv_c06_statement_ret : forall sl,
  let s := If None 3 (blk [Emit 1; Return]) (blk [Break]) in
  let C := compile_ctl (blk [Emit 0; For None None None (blk [s; Emit 2])]) in
  exists pr n, (exists s', star horc C (mkCfg 3 tr0 stk2 sl) (mkCfg pr ([EvEmit 1; EvCond 3] ++ tr0) stk2 s') /\
                           forall i, (i < 0)%nat -> s' i = sl i) /\ fetch C pr = Some (CReturn n).
Proof.
  intros sl s C.
  assert (E : exec horc 20 s tr0 = Some (Ret, [EvEmit 1; EvCond 3] ++ tr0)) by (vm_compute; reflexivity).
  assert (K : carries C 3 (compile 0 s) (Some 17) (Some 16)) by (vm_compute compile; carries_tac).
  exact (c06_statement horc 20 s tr0 Ret _ E C 3 0%nat (Some 17) (Some 16) stk2 sl ltac:(lia) K).
Qed.

(* what post_ok says when no target is designated (only arises for ill-formed skeletons): nothing *)
Lemma nv_post_ok_none : forall orc C p pend tr st s L ct tr', post_ok orc C p pend tr st s L None ct Brk tr' <-> True.
Proof. intros; cbn; tauto. Qed.

(* (4) c06_wf_no_placeholder *)
Lemma nv_c06_wf_no_placeholder :
  wf_block false false prog1 = true /\
  Forall (fun i => i <> CBreak /\ i <> CContinue) (compile_ctl prog1) /\
  (* although the pieces do contain placeholders before the enclosing construct rewrites them *)
  In CBreak (compile 2 S2) /\ In CContinue (compile 2 S2) /\
  wf_block false false E2 = true /\ Forall (fun i => i <> CBreak /\ i <> CContinue) C2.
Proof.
  assert (W : wf_block false false prog1 = true) by (vm_compute; reflexivity).
  assert (W2 : wf_block false false E2 = true) by (vm_compute; reflexivity).
  split; [exact W|]. split; [apply Forall_forall; exact (c06_wf_no_placeholder prog1 W)|].
  split; [vm_compute; tauto|]. split; [vm_compute; tauto|].
  split; [exact W2|]. apply Forall_forall; exact (c06_wf_no_placeholder E2 W2).
Qed.

(* counter-instances: wf is needed -- continue inside a switch that is not in a loop, break inside an if
   that is not in a loop / switch: the placeholder survives *)
Example nv_c06_wf_counter :
  let b1 := blk [Emit 1; Switch None (css [(1, [], blk [Continue])]) 0 (blk [Break])] in
  let b2 := blk [For None (Some 1) None (blk [Emit 1]); If None 2 (blk [Break]) BNil] in
  wf_block false false b1 = false /\ In CContinue (compile_ctl b1) /\ ~ In CBreak (compile_ctl b1) /\
  wf_block false false b2 = false /\ In CBreak (compile_ctl b2).
Proof. vm_compute. repeat split; try tauto. intros H; repeat (destruct H as [H|H]; [discriminate H|]); exact H. Qed.

(* (5) c06_no_fallthrough / c06_no_fallthrough_tagged *)
(* every condition other than c(3), c(4) is TRUE under orc5: the guards of the later cases would match too *)
Definition orc5 : oracle :=
  mkOracle (fun tr k => if k =? 3 then Nat.ltb (length tr) 14 else if k =? 4 then Nat.ltb 9 (length tr) else true)
           (fun tr _ => (length tr - 8)%nat) (fun tr k => Z.of_nat (length tr) + k).
Definition body5 : block :=
  blk [Emit 1; For None (Some 3) None (blk [Emit 2; If None 4 (blk [Break]) (blk [Continue])]); Range 6 (blk [Emit 7])].
Definition cs5 : cases := css [(30, [31], blk [Emit 300; Break]); (32, [], blk [Emit 301])].
Definition dflt5 : block := blk [Emit 400].

Definition trace5 (e : event) : trace :=
  [EvEmit 7; EvEmit 7; EvEmit 7; EvEmit 7; EvEmit 7; EvRange 6; EvCond 4; EvEmit 2; EvCond 3; EvCond 4; EvEmit 2;
   EvCond 3; EvCond 4; EvEmit 2; EvCond 3; EvEmit 1; e; EvCond 77; EvEmit 5].

Lemma nv_c06_no_fallthrough :
  o_cond orc5 tr0 20 = true /\ o_cond orc5 (EvCond 20 :: tr0) 30 = true /\
  (exists mf, run orc5 mf (compile_ctl (BCons (Switch None (CCons 20 [21; 22] body5 cs5) 1 dflt5) BNil)) (mkCfg 0 tr0 [] s0)
              = Finished (trace5 (EvCond 20)) []) /\
  run orc5 300 (compile_ctl (BCons (Switch None (CCons 20 [21; 22] body5 cs5) 1 dflt5) BNil)) (mkCfg 0 tr0 [] s0)
    = Finished (trace5 (EvCond 20)) [].
Proof.
  assert (G : o_cond orc5 tr0 20 = true) by reflexivity.
  assert (E : exec_block orc5 30 body5 (EvCond 20 :: tr0) = Some (Normal, trace5 (EvCond 20))) by (vm_compute; reflexivity).
  split; [exact G|]. split; [reflexivity|]. split.
  - exact (c06_no_fallthrough orc5 20 [21; 22] body5 cs5 1%nat dflt5 30 tr0 s0 _ G E).
  - vm_compute; reflexivity.
Qed.

Lemma nv_c06_no_fallthrough_tagged :
  o_tag orc5 tr0 4 = 6 /\
  (exists mf, run orc5 mf (compile_ctl (BCons (Switch (Some 4) (CCons 6 [7; 8] body5 cs5) 0 dflt5) BNil)) (mkCfg 0 tr0 [] s0)
              = Finished (trace5 (EvTag 4)) []) /\
  run orc5 300 (compile_ctl (BCons (Switch (Some 4) (CCons 6 [7; 8] body5 cs5) 0 dflt5) BNil)) (mkCfg 0 tr0 [] s0)
    = Finished (trace5 (EvTag 4)) [].
Proof.
  assert (G : o_tag orc5 tr0 4 = 6) by reflexivity.
  assert (E : exec_block orc5 30 body5 (EvTag 4 :: tr0) = Some (Normal, trace5 (EvTag 4))) by (vm_compute; reflexivity).
  split; [exact G|]. split.
  - exact (c06_no_fallthrough_tagged orc5 4 6 [7; 8] body5 cs5 0%nat dflt5 30 tr0 s0 _ G E).
  - vm_compute; reflexivity.
Qed.

(* (6) c06_default_entered.  Neither `compile` nor `exec` looks at dpos (remark_c06_dpos_dead_field below).
   Premises: no_match ... = Some tr2, exec_block orc fuel dflt tr2 = Some (Normal, tr'). *)
(* tagged switch, tag value o_tag horc tr0 4 = 3 matches none of 30, 31, 32: the default runs, written first
   (dpos 0) or last (dpos 2); tagless switch under orc5 with the guard c(3) false from this history on (it has 14 events) *)
Definition cs6 : cases := css [(3, [3], blk [Emit 300; Break]); (3, [], blk [Emit 301])].
Lemma nv_c06_default_entered :
  no_match horc (Some (o_tag horc tr0 4)) cs5 (EvTag 4 :: tr0) = Some (EvTag 4 :: tr0) /\
  (exists mf, run horc mf (compile_ctl (BCons (Switch (Some 4) cs5 0 dflt5) BNil)) (mkCfg 0 tr0 [] s0)
              = Finished [EvEmit 400; EvTag 4; EvCond 77; EvEmit 5] []) /\
  (exists mf, run horc mf (compile_ctl (BCons (Switch (Some 4) cs5 2 dflt5) BNil)) (mkCfg 0 tr0 [] s0)
              = Finished [EvEmit 400; EvTag 4; EvCond 77; EvEmit 5] []) /\
  run horc 100 (compile_ctl (BCons (Switch (Some 4) cs5 2 dflt5) BNil)) (mkCfg 0 tr0 [] s0)
    = Finished [EvEmit 400; EvTag 4; EvCond 77; EvEmit 5] [] /\
  (* tagless: three guards are evaluated (and recorded) before the default is entered *)
  no_match orc5 None cs6 (repeat (EvEmit 0) 12 ++ tr0) = Some ([EvCond 3; EvCond 3; EvCond 3] ++ repeat (EvEmit 0) 12 ++ tr0) /\
  (exists mf, run orc5 mf (compile_ctl (BCons (Switch None cs6 1 dflt5) BNil)) (mkCfg 0 (repeat (EvEmit 0) 12 ++ tr0) [] s0)
              = Finished (EvEmit 400 :: [EvCond 3; EvCond 3; EvCond 3] ++ repeat (EvEmit 0) 12 ++ tr0) []) /\
  (* the premise fails as soon as a guard holds *)
  no_match orc5 None cs5 tr0 = None.
Proof.
  assert (N : no_match horc (option_map (o_tag horc tr0) (Some 4)) cs5 (EvTag 4 :: tr0) = Some (EvTag 4 :: tr0))
    by (vm_compute; reflexivity).
  assert (E : exec_block horc 5 dflt5 (EvTag 4 :: tr0) = Some (Normal, [EvEmit 400; EvTag 4; EvCond 77; EvEmit 5]))
    by (vm_compute; reflexivity).
  set (h := (repeat (EvEmit 0) 12 ++ tr0)%list).
  assert (N6 : no_match orc5 (option_map (o_tag orc5 h) None) cs6 h = Some ([EvCond 3; EvCond 3; EvCond 3] ++ h)%list)
    by (vm_compute; reflexivity).
  assert (E6 : exec_block orc5 5 dflt5 ([EvCond 3; EvCond 3; EvCond 3] ++ h)%list
               = Some (Normal, EvEmit 400 :: [EvCond 3; EvCond 3; EvCond 3] ++ h)%list) by (vm_compute; reflexivity).
  split; [exact N|].
  split; [exact (c06_default_entered horc (Some 4) cs5 0%nat dflt5 5 tr0 s0 _ _ N E)|].
  split; [exact (c06_default_entered horc (Some 4) cs5 2%nat dflt5 5 tr0 s0 _ _ N E)|].
  split; [vm_compute; reflexivity|].
  split; [exact N6|].
  split; [exact (c06_default_entered orc5 None cs6 1%nat dflt5 5 h s0 _ _ N6 E6)|].
  vm_compute; reflexivity.
Qed.

(* dpos is a dead field of the model: both equations hold by reflexivity, which is why they are a comment
   (modelling assumption) in Props/C06.v and not a theorem *)
Lemma remark_c06_dpos_dead_field : forall (orc : oracle) tag cs d1 d2 dflt,
  (fun L => compile L (Switch tag cs d1 dflt)) = (fun L => compile L (Switch tag cs d2 dflt)) /\
  (forall f tr, exec orc (S f) (Switch tag cs d1 dflt) tr = exec orc (S f) (Switch tag cs d2 dflt) tr).
Proof. intros; split; reflexivity. Qed.

Print Assumptions nv_c06_skeleton_wf.
Print Assumptions nv_c06_statement_brk.
Print Assumptions nv_c06_rewrite.
Print Assumptions nv_c06_no_fallthrough.
Print Assumptions nv_c06_default_entered.
