(* non-vacuity witnesses for Props/C04.v *)
From Coq Require Import ZArith Floats Bool List String Lia.
From GV Require Import GoSpec.GoPrim Gen.ValueOps_gen Gen.Tables_gen Model.VM Gen.Steps_gen Proofs.C04_ops Proofs.Steps_agree Proofs.C04_vm.
From GV Require Props.C04.
Import ListNotations.
Open Scope string_scope.
Open Scope Z_scope.

(* c04_ops / c04_const: typed t, in_range t a, in_range t b  -- boundary operands of each typed width *)
Lemma nv_c04_ops :
  Value_opAdd (V I32 2147483647) (V I32 1) = Ok (V I32 (-2147483648)) /\
  Value_opDiv (V I8 (-128)) (V I8 (-1)) = Ok (V I8 (-128)) /\
  Value_opMod (V U32 4294967295) (V U32 0) = Panic /\
  Value_opBitLsh (V U8 255) (V U8 7) = Ok (V U8 128) /\
  Value_opLt (V U32 4294967295) (V U32 0) = Ok (B false).
Proof.
  pose proof (C04.c04_ops I32 2147483647 1 eq_refl eq_refl eq_refl) as H1.
  pose proof (C04.c04_ops I8 (-128) (-1) eq_refl eq_refl eq_refl) as H2.
  pose proof (C04.c04_ops U32 4294967295 0 eq_refl eq_refl eq_refl) as H3.
  pose proof (C04.c04_ops U8 255 7 eq_refl eq_refl eq_refl) as H4.
  split; [rewrite (proj1 H1); reflexivity|].
  split; [destruct H2 as (_&_&_&E&_); rewrite E; reflexivity|].
  split; [destruct H3 as (_&_&_&_&E&_); rewrite E; reflexivity|].
  split; [destruct H4 as (_&_&_&_&_&E&_); rewrite E; reflexivity|].
  destruct H3 as (_&_&_&_&_&_&_&_&_&_&E&_). rewrite E. reflexivity.
Qed.
Lemma nv_c04_const :
  Value_opAdd (V U8 250) (Untyped 10) = Ok (V U8 4) /\ Value_opSub (Untyped 0) (V U32 1) = V U32 4294967295.
Proof.
  pose proof (C04.c04_const U8 250 10 eq_refl eq_refl eq_refl) as H1.
  pose proof (C04.c04_const U32 1 0 eq_refl eq_refl eq_refl) as H2.
  split.
  - rewrite (proj1 H1). reflexivity.
  - destruct H2 as (_&_&_&E&_). rewrite E. reflexivity.
Qed.
(* c04_incdec: typed t, in_range t a, in_range t |d|, in_range I64 d *)
Lemma nv_c04_incdec :
  Value_incDec (V I8 (-128)) (-127) = Ok (V I8 1) /\ Value_incDec (V U32 4294967295) 4294967295 = Ok (V U32 4294967294).
Proof.
  split.
  - rewrite (C04.c04_incdec I8 (-128) (-127) eq_refl eq_refl eq_refl eq_refl). reflexivity.
  - rewrite (C04.c04_incdec U32 4294967295 4294967295 eq_refl eq_refl eq_refl eq_refl). reflexivity.
Qed.
(* c04_assign: conjunct 1 (typed, in_range), conjunct 3 (vt v <> untypedInt, vt v <> TypeNil) *)
Lemma nv_c04_assign :
  Value_assign (Untyped 255) TypeUint8 = V U8 255 /\
  Value_assign (V I8 (-3)) TypeInt32 = V I8 (-3) /\
  Value_assign (mkValue TypeString (Zn 0) (PStr [104])) TypeInt32 = mkValue TypeString (Zn 0) (PStr [104]).
Proof.
  destruct C04.c04_assign as (A1 & _ & A3 & _).
  split; [exact (A1 U8 255 eq_refl eq_refl)|]. split; apply A3; cbn; discriminate.
Qed.
(* c04_conv: conjunct 1 (typed t, typed t', in_range), 3, 4 and 5 (Ztrunc f = Some z, in_range);
   conjunct 5 (float64 -> uint32) on a value above the int32 range *)
Lemma nv_c04_conv :
  Value_convert (V I32 (-1)) TypeUint8 = Ok (V U8 255) /\
  Value_convert (V U32 4294967295) TypeInt8 = Ok (V I8 (-1)) /\
  Value_convert (F (-3.75)%float) TypeInt32 = Ok (V I32 (-3)) /\
  Value_convert (F (200.5)%float) TypeUint8 = Ok (V U8 200) /\
  Value_convert (F (-128.5)%float) TypeInt8 = Ok (V I8 (-128)) /\
  Value_convert (F (4000000000.75)%float) TypeUint32 = Ok (V U32 4000000000).
Proof.
  destruct C04.c04_conv as (A1 & _ & A3 & A4 & A5).
  split; [exact (A1 I32 U8 (-1) eq_refl eq_refl eq_refl)|].
  split; [exact (A1 U32 I8 4294967295 eq_refl eq_refl eq_refl)|].
  split; [apply A3; vm_compute; reflexivity|].
  split; [apply (A4 U8); [right; reflexivity|vm_compute; reflexivity|reflexivity]|].
  split; [apply (A4 I8); [left; reflexivity|vm_compute; reflexivity|reflexivity]|].
  apply A5; vm_compute; reflexivity.
Qed.
(* c04_wf: wf_value v, wf_value b -- mixed typed / untyped / float operands *)
Lemma nv_c04_wf :
  wf_value (V U8 200) /\ wf_value (Untyped 100) /\ wf_value (F 0.5%float) /\
  wf_value (Value_opMul (V U8 200) (Untyped 100)) /\ Value_opMul (V U8 200) (Untyped 100) = V U8 32.
Proof.
  assert (W1 : wf_value (V U8 200)) by exact (wf_V U8 200 eq_refl).
  assert (W2 : wf_value (Untyped 100)) by exact (wf_mk_untyped (Zn 100)).
  assert (W3 : wf_value (F 0.5%float)) by exact (wf_mk_f (Fn 0.5%float)).
  split; [exact W1|]. split; [exact W2|]. split; [exact W3|].
  split; [exact (proj1 (proj2 (C04.c04_wf _ _ W1 W2)))|reflexivity].
Qed.

(* c04_vm_*: In (name, sw, f) vm_binops, icode i = C name, znth slots (iA i) = Some l ...
   totalisation check: C name is code_of's default -999 for an unknown name; every name the theorems range over is a real,
   distinct opcode, so `icode i = C name` never holds through the default *)
Lemma nv_c04_opcode_names_real :
  let names := (map (fun x => fst (fst x)) vm_binops ++ map fst vm_local_binops ++
               ["codeIncDec"; "codeLocalIncDec"; "codeCast"; "codeConvert"; "codeLocalSet"; "codeGlobalSet"])%list in
  forallb (fun n => negb (C n =? -999)) names = true /\ NoDup (map C names).
Proof.
  split; [vm_compute; reflexivity|].
  vm_compute. repeat (constructor; [cbn; intuition discriminate|]). constructor.
Qed.
Definition st0 : st := mkSt [V I32 5; V U8 9] [] [] [].
Lemma nv_c04_vm :
  (* GT = LT with operands swapped: 3 > 7 is false (a = 3 pushed first) *)
  step_gen (mkI c_Gt 0 0 0 77) [] [V I32 7; V I32 3] st0 = Some (SNext [] [B false] st0) /\
  (* DIV by zero: runtime error *)
  step_gen (mkI c_Div 0 0 0 77) [] [V I32 0; V I32 3] st0 = Some (SFail "runtime error" st0) /\
  step1 (fun _ n => n) (fun _ _ _ => None) (fun _ _ _ _ => None) (fun _ _ => None) (fun _ _ _ => None) (fun _ _ _ _ => None)
        [] 0 (mkI c_Sub 0 0 0 77) [V I8 1] [V I8 (-128); V I8 127; V I8 0] st0 = SNext [V I8 1] [V I8 (-1); V I8 0] st0 /\
  step_gen (mkI c_IncDec (-1) 0 0 77) [] [V U8 0] st0 = Some (SNext [] [V U8 255] st0) /\
  step_gen (mkI c_LocalIncDec 1 2 0 77) [V U8 0; V I8 126] [] st0 = Some (SNext [V U8 0; V I8 (-128)] [] st0) /\
  step_gen (mkI c_Cast TypeUint8 0 0 77) [] [Untyped 7] st0 = Some (SNext [] [V U8 7] st0) /\
  step_gen (mkI c_Convert TypeInt8 0 0 77) [] [V I32 200] st0 = Some (SNext [] [V I8 (-56)] st0) /\
  (* LOCALSET / GLOBALSET: the constant adopts the type of the variable's current value *)
  step_gen (mkI c_LocalSet 1 0 0 77) [V I32 0; V U8 1] [Untyped 44] st0 = Some (SNext [V I32 0; V U8 44] [] st0) /\
  step_gen (mkI c_GlobalSet 1 0 0 77) [] [Untyped 44] st0 = Some (SNext [] [] (mkSt [V I32 5; V U8 44] [] [] [])) /\
  step_gen (mkI c_LocalMul 0 1 0 77) [V I32 65536; V I32 65536] [nilV] st0 = Some (SNext [V I32 65536; V I32 65536] [V I32 0; nilV] st0).
Proof.
  split; [rewrite (C04.c04_vm_binop "codeGt" true (BRes Value_opLt)) by (cbn; try tauto; reflexivity); reflexivity|].
  split; [rewrite (C04.c04_vm_binop "codeDiv" false (BRes Value_opDiv)) by (cbn; try tauto; reflexivity); reflexivity|].
  split; [rewrite (C04.c04_vm_binop_model "codeSub" false (BPlain Value_opSub)) by (cbn; try tauto; reflexivity); reflexivity|].
  split; [rewrite C04.c04_vm_incdec by reflexivity; reflexivity|].
  split; [rewrite (C04.c04_vm_localincdec _ _ _ _ (V I8 126)) by reflexivity; reflexivity|].
  split; [rewrite C04.c04_vm_cast by reflexivity; reflexivity|].
  split; [rewrite C04.c04_vm_convert by reflexivity; reflexivity|].
  split; [rewrite (C04.c04_vm_localset _ _ _ _ _ (V U8 1)) by reflexivity; reflexivity|].
  split; [rewrite (C04.c04_vm_globalset _ _ _ _ _ (V U8 9)) by reflexivity; reflexivity|].
  rewrite (C04.c04_vm_localop "codeLocalMul" (BPlain Value_opMul)) with (l1 := V I32 65536) (l2 := V I32 65536) by (cbn; try tauto; reflexivity).
  reflexivity.
Qed.
