(* non-vacuity witnesses for Props/C01.v, C05.v, C08.v *)
From Coq Require Import ZArith List String Bool Lia PeanoNat.
From GV Require Import GoSpec.GoPrim GoSpec.GoPrec Gen.ValueOps_gen Gen.Tables_gen Model.Pratt Model.PrattInst Model.ExprEval
                        Model.Lookup Proofs.C04_ops Proofs.C05_inst Proofs.C05_pratt Proofs.C01_expr Proofs.C08_lookup.
From GV Require Props.C01 Props.C05 Props.C08.
Import ListNotations.
Open Scope string_scope.
Open Scope Z_scope.

(* premises: (forall x, in_range I32 (env x)), arith t, goat_parse ts = inl (t, []), table_ok_b = true *)
Definition env1 (x : string) : Z :=
  if String.eqb x "a" then 2147483647 else if String.eqb x "b" then 31 else if String.eqb x "z" then 0 else -2147483648.
Lemma env1_ok : forall x, in_range I32 (env1 x) = true.
Proof. intro x. unfold env1. repeat destruct (String.eqb x _); reflexivity. Qed.

Definition ts1 : list tok :=
  [TSym "-"; TAtom false "c"; TSym "/"; TSym "("; TAtom false "z"; TSym "-"; TAtom false "a"; TSym "*"; TAtom false "a"; TSym ")";
   TSym "^"; TSym "^"; TAtom false "a"; TSym "<<"; TAtom false "b"].
(* c01_expr_partial applied: a 15-token expression with wrap-around (a*a, -MinInt32), parentheses, both unary operators *)
Lemma nv_c01_expr_partial : exists t,
  goat_parse ts1 = inl (t, []) /\ arith t = true /\ flatten t = ts1 /\ grouped go_prec t /\
  eval_goat (fun x => V I32 (env1 x)) t = lift32 (eval_go env1 t) /\
  eval_go env1 t = Ok (-2147483648).
Proof.
  destruct (goat_parse ts1) as [[t r]|] eqn:E; [|vm_compute in E; discriminate].
  assert (r = []) by (vm_compute in E; inversion E; reflexivity). subst r.
  assert (Ha : arith t = true) by (vm_compute in E; inversion E; reflexivity).
  exists t. pose proof (C01.c01_expr_partial C05.c05_table ts1 t env1 E env1_ok Ha) as (F & G & EV).
  repeat split; try assumption. vm_compute in E. inversion E. vm_compute. reflexivity.
Qed.
(* c01_expr_eval on a panicking tree (c % z with z = 0): both sides Panic *)
Lemma nv_c01_expr_eval_panic :
  let t := Bin "+" (Atom false "a") (Bin "%" (Atom false "c") (Atom false "z")) in
  arith t = true /\ eval_go env1 t = Panic /\ eval_goat (fun x => V I32 (env1 x)) t = Panic.
Proof.
  intro t. assert (A : arith t = true) by reflexivity.
  destruct (C01.c01_expr_eval env1 t env1_ok A) as [E _].
  assert (P : eval_go env1 t = Panic) by (vm_compute; reflexivity).
  rewrite P in E. repeat split; assumption.
Qed.
(* totalisation check: on arith trees the Go side is never Unmodelled, so the equation of c01_expr_eval
   never holds because both sides are the "unmodelled" default *)
Lemma nv_c01_never_unmodelled : forall env t, arith t = true -> eval_go env t <> Unmodelled.
Proof.
  intros env t. induction t as [i x|op l IHl r IHr|u t IH|t IH]; cbn [eval_go]; intro A.
  - discriminate.
  - apply arith_Bin in A. destruct A as (Ao & Al & Ar). specialize (IHl Al). specialize (IHr Ar).
    destruct (eval_go env l); [|discriminate|contradiction]. destruct (eval_go env r); [|discriminate|contradiction].
    apply mem_arith_ops in Ao. destruct Ao as [->|[->|[->|[->|[->|[->|[->|[->|[->| ->]]]]]]]]]; cbn; try discriminate;
      unfold iquo, irem, ishl, ishr; repeat match goal with |- context [if ?c then _ else _] => destruct c end; discriminate.
  - destruct u; try discriminate; specialize (IH A); destruct (eval_go env t); cbn; try discriminate; contradiction.
  - exact (IH A).
Qed.

(* c05_table_order: In o1 binops, In o2 binops *)
Lemma nv_c05_table_order : lbp_of "+" < lbp_of "<<" /\ ~ (lbp_of "<<" < lbp_of "&") /\ lbp_of "||" < lbp_of "&&".
Proof.
  assert (I : forall o, is_binop o = true -> In o binops) by (intro o; apply is_binop_In).
  pose proof (C05.c05_table_order "+" "<<" (I "+" eq_refl) (I "<<" eq_refl)) as H1.
  pose proof (C05.c05_table_order "<<" "&" (I "<<" eq_refl) (I "&" eq_refl)) as H2.
  pose proof (C05.c05_table_order "||" "&&" (I "||" eq_refl) (I "&&" eq_refl)) as H3.
  split; [apply H1; vm_compute; reflexivity|]. split; [intro H; apply H2 in H; vm_compute in H; discriminate|].
  apply H3; vm_compute; reflexivity.
Qed.

(* c05_pratt_sound: an arbitrary (non-goat, C-like) table meeting the two table conditions, rbp > 0, non-empty rest *)
Definition my_lbp (s : string) : Z := if String.eqb s "+" then 10 else if String.eqb s "*" then 20 else if String.eqb s "==" then 5 else 0.
Definition my_infix (s : string) : bool := String.eqb s "+" || String.eqb s "*" || String.eqb s "==".
Lemma my_table1 : forall s, my_infix s = true -> 0 < my_lbp s.
Proof. intros s. unfold my_infix, my_lbp. destruct (String.eqb s "+"), (String.eqb s "*"), (String.eqb s "=="); cbn; intros; try lia; discriminate. Qed.
Lemma my_table2 : forall s, my_infix s = true -> my_lbp s <= 30 /\ my_lbp s <= 30 /\ my_lbp s <= 30.
Proof. intros s. unfold my_infix, my_lbp. destruct (String.eqb s "+"), (String.eqb s "*"), (String.eqb s "=="); cbn; intros; try lia; discriminate. Qed.
Lemma nv_c05_pratt_sound :
  let ts := [TSym "-"; TAtom false "a"; TSym "*"; TSym "("; TAtom true "1"; TSym "+"; TAtom false "b"; TSym ")"; TSym "+"; TAtom false "c";
             TSym "=="; TAtom false "d"] in
  exists t rest, Pratt.expr my_lbp my_infix 30 30 30 1 20 7 ts = inl (t, rest) /\
    rest = [TSym "=="; TAtom false "d"] /\ (flatten t ++ rest)%list = ts /\ grouped my_lbp t /\ cur_lbp my_lbp rest <= 7.
Proof.
  intro ts. destruct (Pratt.expr my_lbp my_infix 30 30 30 1 20 7 ts) as [[t rest]|] eqn:E; [|vm_compute in E; discriminate].
  exists t, rest. assert (0 <= 7) by lia.
  pose proof (C05.c05_pratt_sound my_lbp my_infix 30 30 30 1 my_table1 my_table2 20 7 ts t rest H E) as (F & G & _ & _ & L).
  split; [reflexivity|]. split; [vm_compute in E; inversion E; reflexivity|]. repeat split; assumption.
Qed.

(* c05_grouping / c05_complete / c05_unique: premises goat_parse = inl (t, []) ; grouped go_prec t, ops_ok is_binop t = true *)
Definition t5 : tree :=
  Bin "||" (Bin "&&" (Bin "==" (Bin "+" (Atom false "a") (Bin "*" (Un UNeg (Atom false "b")) (Paren (Bin "-" (Atom true "1") (Atom false "c")))))
                               (Bin "<<" (Atom false "d") (Atom true "2")))
                     (Un UNot (Atom false "e")))
           (Bin "<" (Atom false "f") (Bin "|" (Atom false "g") (Un UCompl (Atom false "h")))).
Lemma t5_grouped : grouped go_prec t5 /\ ops_ok is_binop t5 = true.
Proof.
  split; [|vm_compute; reflexivity].
  cbn -[Z.lt Z.le]. repeat split; try (vm_compute; intro; discriminate); try reflexivity;
    intros p H; inversion H; subst; vm_compute; try discriminate; reflexivity.
Qed.
Lemma nv_c05_complete_grouping :
  goat_parse (flatten t5) = inl (t5, []) /\
  (flatten t5 = flatten t5 /\ grouped go_prec t5 /\ ops_ok is_binop t5 = true).
Proof.
  destruct t5_grouped as [G O]. pose proof (C05.c05_complete t5 G O) as P. split; [exact P|].
  exact (C05.c05_grouping (flatten t5) t5 P).
Qed.
(* c05_unique: the mis-grouped tree with the same tokens is NOT grouped (so the premise set picks out one tree) *)
Lemma nv_c05_unique :
  let good := Bin "-" (Bin "<<" (Atom true "1") (Atom true "3")) (Atom true "1") in
  let bad := Bin "<<" (Atom true "1") (Bin "-" (Atom true "3") (Atom true "1")) in
  flatten good = flatten bad /\ grouped go_prec good /\ ops_ok is_binop good = true /\ ops_ok is_binop bad = true /\ ~ grouped go_prec bad.
Proof.
  intros good bad. split; [reflexivity|].
  assert (G : grouped go_prec good).
  { cbn -[Z.lt Z.le]. repeat split; try (vm_compute; intro; discriminate); try reflexivity;
      intros p H; inversion H; subst; vm_compute; try discriminate; reflexivity. }
  split; [exact G|]. split; [reflexivity|]. split; [reflexivity|].
  intro Gb. assert (E : good = bad) by (apply C05.c05_unique; try assumption; reflexivity). discriminate.
Qed.

(* c08_refine: well_formed 1 os = true ; applied to a history with 3-level shadowing, redeclaration in the same block,
   sibling blocks and a global *)
Lemma nv_c08_refine :
  let os := [SDeclare "x"; SDeclare "y"; SBegin; SDeclare "x"; SDeclare "x"; SBegin; SDeclare "x"; SBegin; SDeclare "x"; SResolve "x"; SResolve "y";
             SEnd; SResolve "x"; SEnd; SResolve "x"; SEnd; SBegin; SDeclare "y"; SResolve "y"; SResolve "g"; SEnd; SResolve "x"; SResolve "y"; SEnd; SResolve "x"] in
  well_formed 1 os = true /\ c_run (c_begin new_scope) os = s_run (s_begin s_new) os /\
  s_run (s_begin s_new) os =
    [Some (Some 0); Some (Some 1); None; Some (Some 2); Some (Some 2); None; Some (Some 3); None; Some (Some 4); Some (Some 4); Some (Some 1);
     None; Some (Some 3); None; Some (Some 2); None; None; Some (Some 5); Some (Some 5); Some None; None; Some (Some 0); Some (Some 1); None; Some None]%nat.
Proof.
  intro os. assert (W : well_formed 1 os = true) by reflexivity.
  split; [exact W|]. split; [exact (C08.c08_refine os W)|]. vm_compute. reflexivity.
Qed.
(* c08_budget: chain_fuel m <= f with a 3-link chain x, ~x, ~~x *)
Lemma nv_c08_budget :
  let m := [("x", 3); ("~x", 2); ("~~x", 1); ("y", 0)]%nat in
  (chain_fuel m <= 9)%nat /\ shadow 9 m "x" = shadow (chain_fuel m) m "x" /\
  shadow 9 m "x" = [("~x", 3); ("~~x", 2); ("~~~x", 1); ("y", 0)]%nat /\
  shadow 2 m "x" <> shadow 9 m "x".
Proof.
  intro m. assert (L : (chain_fuel m <= 9)%nat) by (vm_compute; lia).
  split; [exact L|]. split; [exact (proj1 (C08.c08_budget m "x" 9%nat L))|]. split; [vm_compute; reflexivity|].
  vm_compute. discriminate.
Qed.
