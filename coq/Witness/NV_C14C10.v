(* non-vacuity witnesses for Props/C14.v (module M14) and Props/C10.v (module M10) *)
From Coq Require Import ZArith List Bool Floats Lia Permutation PeanoNat.
From Coq Require String.
From GV Require GoSpec.GoPrim GoSpec.GoFmt Gen.ValueOps_gen Model.Print Proofs.C14_print Props.C14.
From GV Require Model.OMap Proofs.C10_omap Props.C10.

Module M14.
Import Coq.Strings.String.
Import GV.GoSpec.GoPrim GV.GoSpec.GoFmt GV.Gen.ValueOps_gen GV.Model.Print GV.Proofs.C14_print.
Import ListNotations.
Local Open Scope Z_scope.

(* Section variable [ff : float -> bytes] -- a concrete formatter that really depends on its argument:
   the truncated integer part followed by "." ("NaN" for NaN / infinities) *)
Definition ff0 (f : float) : list Z :=
  match Ztrunc f with Some z => (print_Z z ++ bs ".")%list | None => bs "NaN" end.

(* goatlang type tags *)
Definition tS1 : Z := fn_sliceType TypeInt32.                  (* []int *)
Definition tS2 : Z := fn_sliceType tS1.                        (* [][]int *)
Definition tS3 : Z := fn_sliceType tS2.                        (* [][][]int *)
Definition tMis : Z := fn_mapType TypeInt32 TypeString.        (* map[int]string *)
Definition tMsS : Z := fn_mapType TypeString tS1.              (* map[string][]int *)
Definition tMsM : Z := fn_mapType TypeString tMis.             (* map[string]map[int]string *)
Definition tMbM : Z := fn_mapType TypeBool tMis.               (* map[bool]map[int]string *)
Definition tMiX : Z := fn_mapType TypeInt32 TypeNil.           (* map[int]any *)
Definition tSM : Z := fn_sliceType tMis.                       (* []map[int]string *)
Definition tStr : Z := fn_structType 0.                        (* a struct type *)

Definition i32 (z : Z) : value := mkValue TypeInt32 (Zn z) PNone.
Definition str (s : string) : value := mkValue TypeString (Zn 0) (PStr (bs s)).
Definition ref (t a : Z) : value := mkValue t (Zn 0) (PRef a).
Definition nilv (t : Z) : value := mkValue t (Zn 0) PNone.

(* one heap with: a slice containing itself (1), nested slices (2,3,4), a single-entry string map of a slice (5),
   a slice of maps (6,7,8 + a nil map), a struct reference with depth-1 fields (9), a struct pointing to itself (10),
   a TWO-entry map containing itself (11), maps of nil map / of map (12,13), both kinds of empty map (8,14),
   an empty struct (15), a three-level slice (16) *)
Definition Hl : list (addr * object) :=
  [(1, OSlice [ref tS2 1; i32 9]);
   (2, OSlice [ref tS1 3; ref tS1 4]);
   (3, OSlice [i32 1; i32 2]);
   (4, OSlice []);
   (5, OStrMap [(bs "k", ref tS1 3)]);
   (6, OSlice [ref tMis 7; ref tMis 8; nilv tMis; ref tMis 14]);
   (7, ONumMap TypeInt32 [(Zn 5, str "x")]);
   (8, OStrMap []);
   (9, OStruct [(bs "A", i32 7); (bs "B", ref tS1 3); (bs "C", ref tMis 7); (bs "S", str "hi"); (bs "N", nilv tS1);
                (bs "F", mkValue TypeFloat64 (Fn 2.75%float) PNone); (bs "T", mkValue TypeBool (Zn 1) PNone)]);
   (10, OStruct [(bs "Self", ref tStr 10); (bs "X", i32 1)]);
   (11, ONumMap TypeInt32 [(Zn 1, ref tS1 3); (Zn 2, ref tMiX 11)]);
   (12, OStrMap [(bs "n", nilv tMis)]);
   (13, ONumMap TypeBool [(Zn 1, ref tMis 7)]);
   (14, ONumMap TypeInt32 []);
   (15, OStruct []);
   (16, OSlice [ref tS2 2])].
Definition H : heap := heap_of Hl.

(* wf_heap / wf_value unfolded:
     wf_heap h   := forall a o, h a = Some o -> wf_obj h o
     wf_obj h o  := Forall (wf_value h) (obj_values o) /\ (ONumMap kt _ -> scalar_tag (Type_base kt) = true)
     wf_value h v := scalar_ok v  \/  (Type_isSafeStr (vt v) = false /\ (vval v = PNone \/ exists a o, vval v = PRef a /\ h a = Some o))
     scalar_ok v := (nil/bool/int/float tag /\ no payload) \/ (string tag /\ PStr payload)
   NB: a container TAG need not agree with the KIND of the object it points to; function values and host objects
   (TypeFunc / TypeObject) are NOT wf_value, so c14_total says nothing about printing them. *)
Lemma wf_heap_of : forall l, Forall (fun p => wf_obj (heap_of l) (snd p)) l -> wf_heap (heap_of l).
Proof.
  intros l. unfold wf_heap. generalize (heap_of l) at 1 3. intros h F.
  induction F as [|[b ob] l0 Hb _ IH]; intros a o; cbn [heap_of]; [discriminate|].
  destruct (a =? b); [intros E; injection E as <-; exact Hb | apply IH].
Qed.

Ltac wfv :=
  first [ left; left; split; reflexivity
        | left; right; split; [reflexivity | eexists; reflexivity]
        | right; split; [reflexivity|]; first [left; reflexivity | right; do 2 eexists; split; reflexivity] ].
Ltac wfo := split; [cbn [snd obj_values map]; repeat (apply Forall_cons; [wfv|]); apply Forall_nil | first [exact I | reflexivity]].

Lemma H_wf : wf_heap H.
Proof. apply wf_heap_of. unfold Hl. repeat (apply Forall_cons; [wfo|]). apply Forall_nil. Qed.

(* the heap is cyclic: object 1 is reachable from itself in one step, object 11 and 10 too *)
Lemma H_cyclic : In 1 (reach2 H (ref tS2 1)) /\ In 11 (reach2 H (ref tMiX 11)) /\ In 10 (reach2 H (ref tStr 10)).
Proof. vm_compute. intuition. Qed.

(* c14_total, conjunct 1: cyclic slice, cyclic struct, two-entry cyclic map, depth-3 slice *)
Lemma nv_c14_total_1 :
  (exists s, string_top ff0 H (ref tS2 1) = Ok s) /\
  (exists s, string_top ff0 H (ref tStr 10) = Ok s) /\
  (exists s, string_top ff0 H (ref tMiX 11) = Ok s) /\
  (exists s, string_top ff0 H (ref tS3 16) = Ok s) /\
  (* what the strings are *)
  string_top ff0 H (ref tS2 1) = Ok (bs "[[...] 9]") /\
  string_top ff0 H (ref tStr 10) = Ok (bs "&{Self:&{...} X:1}") /\
  string_top ff0 H (ref tMiX 11) = Ok (bs "map[1:[1 2] 2:map[...]]") /\
  string_top ff0 H (ref tS3 16) = Ok (bs "[[...]]").
Proof.
  destruct (C14.c14_total ff0 H H_wf) as [T _].
  split; [apply T; wfv|]. split; [apply T; wfv|]. split; [apply T; wfv|]. split; [apply T; wfv|].
  repeat split.
Qed.

(* c14_total, conjunct 2: Println of 8 operands, three of them cyclic *)
Definition ops_total : list value :=
  [ref tS2 1; ref tStr 10; ref tMiX 11; ref tS2 2; i32 (-5); str "s"; mkValue TypeFloat64 (Fn (-2.5)%float) PNone; nilv tStr].
Lemma nv_c14_total_2 :
  Forall (wf_value H) ops_total /\
  (exists s, fmt_Println ff0 H ops_total = Ok s) /\
  fmt_Println ff0 H ops_total =
    Ok (bs "[[...] 9] &{Self:&{...} X:1} map[1:[1 2] 2:map[...]] [[1 2] []] -5 s -2. nil" ++ [10])%list.
Proof.
  assert (F : Forall (wf_value H) ops_total) by (unfold ops_total; repeat (apply Forall_cons; [wfv|]); apply Forall_nil).
  destruct (C14.c14_total ff0 H H_wf) as [_ T].
  split; [exact F|]. split; [exact (T _ F)|]. vm_compute. reflexivity.
Qed.

(* c14_depth_bound: two heaps that differ at the third level (address 3) and elsewhere; the value is the
   depth-3 slice [][][]int -- reach1 = [16], reach2 = [2]; the rendering cannot tell them apart *)
Definition H' : heap := heap_of
  [(16, OSlice [ref tS2 2]); (2, OSlice [ref tS1 3; ref tS1 4]); (3, OSlice [i32 777]); (1, OStrMap [])].
Lemma nv_c14_depth_bound :
  reach1 (ref tS3 16) = [16] /\ reach2 H (ref tS3 16) = [2] /\
  H 3 <> H' 3 /\ H 4 <> H' 4 /\ H 1 <> H' 1 /\
  string_top ff0 H (ref tS3 16) = string_top ff0 H' (ref tS3 16).
Proof.
  split; [reflexivity|]. split; [reflexivity|].
  split; [vm_compute; discriminate|]. split; [vm_compute; discriminate|]. split; [vm_compute; discriminate|].
  apply C14.c14_depth_bound. intros a Ha. vm_compute in Ha.
  destruct Ha as [<-|[<-|[]]]; reflexivity.
Qed.
(* second instance: depth 2, heaps differ only outside reach1/reach2 *)
Lemma nv_c14_depth_bound_2 :
  reach2 H (ref tS2 2) = [3; 4] /\
  string_top ff0 H (ref tS2 2) = string_top ff0 (heap_of [(2, OSlice [ref tS1 3; ref tS1 4]); (3, OSlice [i32 1; i32 2]); (4, OSlice [])]) (ref tS2 2).
Proof.
  split; [reflexivity|]. apply C14.c14_depth_bound. intros a Ha. vm_compute in Ha.
  destruct Ha as [<-|[<-|[<-|[]]]]; reflexivity.
Qed.

Lemma nv_c14_scalars :
  string_top ff0 H (mkValue TypeBool (Zn 1) PNone) = Ok (bs "true") /\
  string_top ff0 H (mkValue TypeBool (Zn 0) PNone) = Ok (bs "false") /\
  string_top ff0 H (mkValue TypeUint32 (Zn 4294967295) PNone) = Ok (bs "4294967295") /\
  string_top ff0 H (mkValue TypeUint32 (Zn 2147483648) PNone) = Ok (bs "2147483648") /\
  string_top ff0 H (mkValue TypeInt8 (Zn (-128)) PNone) = Ok (bs "-128") /\
  string_top ff0 H (mkValue TypeUint8 (Zn 255) PNone) = Ok (bs "255") /\
  string_top ff0 H (mkValue TypeInt32 (Zn (-2147483648)) PNone) = Ok (bs "-2147483648") /\
  string_top ff0 H (mkValue TypeFloat64 (Fn 1234.75%float) PNone) = Ok (bs "1234.") /\
  string_top ff0 H (mkValue TypeString (Zn 0) (PStr (bs "a b"))) = Ok (bs "a b").
Proof.
  destruct (C14.c14_scalars ff0 H) as (B & I & F & S).
  pose proof (B true) as B1. pose proof (B false) as B0.
  pose proof (I U32 4294967295 ltac:(vm_compute; discriminate) eq_refl) as I1.
  pose proof (I U32 2147483648 ltac:(vm_compute; discriminate) eq_refl) as I2.
  pose proof (I I8 (-128) ltac:(vm_compute; discriminate) eq_refl) as I3.
  pose proof (I U8 255 ltac:(vm_compute; discriminate) eq_refl) as I4.
  pose proof (I I32 (-2147483648) ltac:(vm_compute; discriminate) eq_refl) as I5.
  pose proof (F 1234.75%float) as F1. pose proof (S (bs "a b")) as S1.
  exact (conj B1 (conj B0 (conj I1 (conj I2 (conj I3 (conj I4 (conj I5 (conj F1 S1)))))))).
Qed.

(* repr / repr_top: inhabited for every shape the comment of c14_nested lists *)
Ltac rp :=
  lazymatch goal with
  | |- Forall2 _ _ _ => constructor; rp
  | |- repr_field _ _ _ => split; [reflexivity | cbn [snd]; rp]
  | |- repr _ _ (GSlice _) => eapply RSlice; [reflexivity | reflexivity | rp]
  | |- repr _ _ (GMap1 (GStr _) _) => eapply RStrMap1; [reflexivity | reflexivity | rp]
  | |- repr _ _ (GMap1 _ _) => eapply RNumMap1; [reflexivity | reflexivity | rp | reflexivity | rp]
  | |- repr _ _ GMap0 => first [eapply RStrMap0; [reflexivity | reflexivity] | eapply RNumMap0; [reflexivity | reflexivity]]
  | |- repr _ _ (GInt _) => apply RInt; reflexivity
  | |- repr _ _ (GBool ?b) => apply (RBool _ _ b); reflexivity
  | |- repr _ _ (GStr _) => apply RStr; reflexivity
  | |- repr _ _ (GFloat _) => apply RFloat; reflexivity
  | |- repr _ _ GNilSlice => apply RNilSlice; reflexivity
  | |- repr _ _ GNilMap => apply RNilMap; reflexivity
  | |- repr_top _ _ (GVal _) => apply RTVal; rp
  | |- repr_top _ _ (GStructRef _) => eapply RTStruct; [reflexivity | reflexivity | rp]
  end.

Definition gi (z : Z) := GInt z.
(* (a) slice of slices *)
Definition g_a : gtop := GVal (GSlice [GSlice [GInt 1; GInt 2]; GSlice []]).
(* (b) single-entry map of a slice *)
Definition g_b : gtop := GVal (GMap1 (GStr (bs "k")) (GSlice [GInt 1; GInt 2])).
(* (c) slice of maps: single-entry numeric map, empty string map, nil map, empty numeric map *)
Definition g_c : gtop := GVal (GSlice [GMap1 (GInt 5) (GStr (bs "x")); GMap0; GNilMap; GMap0]).
(* (d) struct reference whose fields have depth <= 1 (int, slice, map, string, nil slice, float, bool) *)
Definition g_d : gtop := GStructRef [(bs "A", GInt 7); (bs "B", GSlice [GInt 1; GInt 2]); (bs "C", GMap1 (GInt 5) (GStr (bs "x")));
                                     (bs "S", GStr (bs "hi")); (bs "N", GNilSlice); (bs "F", GFloat 2.75%float); (bs "T", GBool true)].
(* (e) map of a nil map;  (f) map (bool key) of a map *)
Definition g_e : gtop := GVal (GMap1 (GStr (bs "n")) GNilMap).
Definition g_f : gtop := GVal (GMap1 (GBool true) (GMap1 (GInt 5) (GStr (bs "x")))).
(* depth 1 / 0 shapes: nil map, empty maps (both object kinds), nil slice, empty slice, empty struct *)

Lemma repr_a : repr_top H (ref tS2 2) g_a.   Proof. unfold g_a; rp. Qed.
Lemma repr_b : repr_top H (ref tMsS 5) g_b.  Proof. unfold g_b; rp. Qed.
Lemma repr_c : repr_top H (ref tSM 6) g_c.   Proof. unfold g_c; rp. Qed.
Lemma repr_d : repr_top H (ref tStr 9) g_d.  Proof. unfold g_d; rp. Qed.
Lemma repr_e : repr_top H (ref tMsM 12) g_e. Proof. unfold g_e; rp. Qed.
Lemma repr_f : repr_top H (ref tMbM 13) g_f. Proof. unfold g_f; rp. Qed.
Lemma repr_nilmap : repr_top H (nilv tMis) (GVal GNilMap).       Proof. rp. Qed.
Lemma repr_nilslice : repr_top H (nilv tS1) (GVal GNilSlice).    Proof. rp. Qed.
Lemma repr_empty_strmap : repr_top H (ref tMsS 8) (GVal GMap0).  Proof. rp. Qed.
Lemma repr_empty_nummap : repr_top H (ref tMis 14) (GVal GMap0). Proof. rp. Qed.
Lemma repr_empty_slice : repr_top H (ref tS1 4) (GVal (GSlice [])). Proof. rp. Qed.
Lemma repr_empty_struct : repr_top H (ref tStr 15) (GStructRef []). Proof. rp. Qed.

Lemma depths : depth_top g_a = 2%nat /\ depth_top g_b = 2%nat /\ depth_top g_c = 2%nat /\ depth_top g_d = 2%nat /\
               depth_top g_e = 2%nat /\ depth_top g_f = 2%nat.
Proof. repeat split. Qed.

(* c14_nested applied to each shape; the right-hand sides are literal strings *)
Lemma nv_c14_nested :
  string_top ff0 H (ref tS2 2) = Ok (bs "[[1 2] []]") /\
  string_top ff0 H (ref tMsS 5) = Ok (bs "map[k:[1 2]]") /\
  string_top ff0 H (ref tSM 6) = Ok (bs "[map[5:x] map[] map[] map[]]") /\
  string_top ff0 H (ref tStr 9) = Ok (bs "&{A:7 B:[1 2] C:map[5:x] S:hi N:[] F:2. T:true}") /\
  string_top ff0 H (ref tMsM 12) = Ok (bs "map[n:map[]]") /\
  string_top ff0 H (ref tMbM 13) = Ok (bs "map[true:map[5:x]]") /\
  string_top ff0 H (nilv tMis) = Ok (bs "map[]") /\
  string_top ff0 H (nilv tS1) = Ok (bs "[]") /\
  string_top ff0 H (ref tMsS 8) = Ok (bs "map[]") /\
  string_top ff0 H (ref tMis 14) = Ok (bs "map[]") /\
  string_top ff0 H (ref tS1 4) = Ok (bs "[]") /\
  string_top ff0 H (ref tStr 15) = Ok (bs "&{}").
Proof.
  pose (nest := fun v g R D => C14.c14_nested ff0 H v g R D).
  split; [rewrite (nest _ _ repr_a ltac:(vm_compute; lia)); vm_compute; reflexivity|].
  split; [rewrite (nest _ _ repr_b ltac:(vm_compute; lia)); vm_compute; reflexivity|].
  split; [rewrite (nest _ _ repr_c ltac:(vm_compute; lia)); vm_compute; reflexivity|].
  split; [rewrite (nest _ _ repr_d ltac:(vm_compute; lia)); vm_compute; reflexivity|].
  split; [rewrite (nest _ _ repr_e ltac:(vm_compute; lia)); vm_compute; reflexivity|].
  split; [rewrite (nest _ _ repr_f ltac:(vm_compute; lia)); vm_compute; reflexivity|].
  split; [rewrite (nest _ _ repr_nilmap ltac:(vm_compute; lia)); vm_compute; reflexivity|].
  split; [rewrite (nest _ _ repr_nilslice ltac:(vm_compute; lia)); vm_compute; reflexivity|].
  split; [rewrite (nest _ _ repr_empty_strmap ltac:(vm_compute; lia)); vm_compute; reflexivity|].
  split; [rewrite (nest _ _ repr_empty_nummap ltac:(vm_compute; lia)); vm_compute; reflexivity|].
  split; [rewrite (nest _ _ repr_empty_slice ltac:(vm_compute; lia)); vm_compute; reflexivity|].
  rewrite (nest _ _ repr_empty_struct ltac:(vm_compute; lia)); vm_compute; reflexivity.
Qed.

(* c14_println: 8 operands (all depth-2 shapes + scalars), Sprint, and Print of one operand *)
Definition ops_v : list value :=
  [ref tS2 2; ref tMsS 5; ref tSM 6; ref tStr 9; ref tMsM 12; ref tMbM 13; mkValue TypeUint32 (Zn 4294967295) PNone; str "end"].
Definition ops_g : list gtop := [g_a; g_b; g_c; g_d; g_e; g_f; GVal (GInt 4294967295); GVal (GStr (bs "end"))].
Lemma ops_repr : Forall2 (fun v g => repr_top H v g /\ (depth_top g <= 2)%nat) ops_v ops_g.
Proof.
  unfold ops_v, ops_g.
  repeat (apply Forall2_cons; [split; [first [exact repr_a|exact repr_b|exact repr_c|exact repr_d|exact repr_e|exact repr_f|rp] | vm_compute; lia]|]).
  apply Forall2_nil.
Qed.
Lemma nv_c14_println :
  fmt_Println ff0 H ops_v =
    Ok (bs "[[1 2] []] map[k:[1 2]] [map[5:x] map[] map[] map[]] &{A:7 B:[1 2] C:map[5:x] S:hi N:[] F:2. T:true} map[n:map[]] map[true:map[5:x]] 4294967295 end" ++ [10])%list /\
  fmt_Sprint ff0 H ops_v =
    Ok (bs "[[1 2] []] map[k:[1 2]] [map[5:x] map[] map[] map[]] &{A:7 B:[1 2] C:map[5:x] S:hi N:[] F:2. T:true} map[n:map[]] map[true:map[5:x]] 4294967295 end") /\
  fmt_Print ff0 H [ref tStr 9] = Ok (bs "&{A:7 B:[1 2] C:map[5:x] S:hi N:[] F:2. T:true}").
Proof.
  destruct (C14.c14_println ff0 H _ _ ops_repr) as (P & S & _).
  assert (F1 : Forall2 (fun v g => repr_top H v g /\ (depth_top g <= 2)%nat) [ref tStr 9] [g_d]).
  { constructor; [split; [exact repr_d | vm_compute; lia] | constructor]. }
  destruct (C14.c14_println ff0 H _ _ F1) as (_ & _ & P1).
  split; [rewrite P; vm_compute; reflexivity|]. split; [rewrite S; vm_compute; reflexivity|].
  rewrite (P1 _ _ eq_refl eq_refl). vm_compute. reflexivity.
Qed.

(* the spec constructor GNil is never related to any goatlang value: c14_nested/c14_println never speak about a nil
   interface / nil pointer operand (consistent with c14_nil_refuted, which shows goatlang prints "nil", Go "<nil>") *)
Lemma remark_GNil_not_repr : forall h v, ~ repr h v GNil.
Proof. intros h v R. inversion R. Qed.
Lemma remark_GNil_not_repr_top : forall h v, ~ repr_top h v (GVal GNil).
Proof. intros h v R. inversion R; subst. eapply remark_GNil_not_repr; eauto. Qed.
(* maps with two or more entries are not representable (as the comment of c14_nested says): repr only relates a map
   VALUE to GMap1/GMap0/GNilMap, and GMap1 needs a one-entry object *)
Lemma remark_two_entry_map_not_repr : forall g, ~ repr_top H (ref tMiX 11) g.
Proof.
  intros g R. inversion R as [v g0 R0|]; subst.
  - inversion R0; subst; match goal with E : H 11 = Some _ |- _ => vm_compute in E; discriminate E end.
  - match goal with E : Type_base _ = TypeStruct |- _ => vm_compute in E; discriminate E end.
Qed.
(* the float conjunct of c14_scalars has no content about float FORMATTING: model and spec share [ff], the conjunct
   holds for every ff, e.g. the constant-empty formatter; it only says goatlang hands the float64 to fmt unchanged *)
Lemma remark_c14_float_parametric : forall h f,
  string_top (fun _ => []) h (mkValue TypeFloat64 (Fn f) PNone) = Ok (go_fmt (fun _ => []) (GFloat f)).
Proof. intros. reflexivity. Qed.
(* the Sprint conjunct of c14_println for >= 2 operands states goatlang's own rule (always one space); the right-hand side
   [join_sp (map go_fmt_top gs)] is NOT Go's fmt.Sprint, which adds a space only between operands when neither is a string:
   Go: fmt.Sprint("a","b") = "ab"; goatlang/model: "a b" *)
Lemma remark_sprint_strings : fmt_Sprint ff0 H [str "a"; str "b"] = Ok (bs "a b").
Proof. reflexivity. Qed.

End M14.

Module M10.
Import GV.Model.OMap GV.Proofs.C10_omap.
Import ListNotations.
Local Open Scope Z_scope.

(* Section context: K = Z with Z.eqb; V = (type tag, payload); assignV really depends on the type argument
   (conversion to uint8 when the element type is 8, retagging always); zeroV depends on the type too *)
Definition V : Type := (Z * Z)%type.
Definition assignV (v : V) (t : Z) : V := (t, if t =? 8 then snd v mod 256 else snd v).
Definition zeroV (t : Z) : V := (t, 0).
Definition keqb : Z -> Z -> bool := Z.eqb.
Lemma keqb_spec : forall a b, keqb a b = true <-> a = b.
Proof. exact Z.eqb_eq. Qed.

Ltac perm_rev := match goal with |- Permutation _ ?l => exact (Permutation_sym (Permutation_rev l)) end.

(* a map with a history: literal of 6 entries, three deletes, a re-insert of a deleted key (key stays listed),
   two more deletes the second of which compacts (oracle order [2;6] <> data order [6;2]), a re-insert after the
   compaction and a fresh insert.  Every delete carries a non-trivial [order] (reverse of the live keys / a swap). *)
Definition lit : list (Z * V) := [(1, (0, 300)); (2, (0, 20)); (3, (0, 30)); (4, (0, 40)); (5, (0, 50)); (6, (0, 60))].
Definition m0 : omap := new_map keqb assignV 8 lit.
Definition hist : list (@op Z V) :=
  [ODelete 1 [6; 5; 4; 3; 2]; ODelete 2 [6; 5; 4; 3]; ODelete 3 [4; 6; 5];
   OSet 2 (0, 777);
   ODelete 4 [2; 6; 5]; ODelete 5 [2; 6];
   OSet 1 (0, 1000); OSet 9 (0, 9)].
Definition mh : omap := apply_all keqb assignV m0 hist.

(* c10_inv, conjunct 1: NoDup (map fst ps) *)
Lemma nv_c10_inv_1 : Inv keqb m0.
Proof.
  apply (proj1 (C10.c10_inv keqb keqb_spec assignV)).
  vm_compute. repeat (constructor; [cbn; intuition discriminate|]). constructor.
Qed.

(* c10_inv, conjunct 2: ops_ok unfolded =
     order_ok m0 1 [6;5;4;3;2] /\ order_ok (delete m0 1 ..) 2 [6;5;4;3] /\ ... /\ True,
   order_ok m k order = Permutation order (map fst (remove k (data m))) *)
Lemma hist_ops_ok : ops_ok keqb assignV m0 hist.
Proof.
  vm_compute. repeat split; try perm_rev.
  (* Permutation [4;6;5] [4;5;6] *)
  apply perm_skip, perm_swap.
Qed.
Lemma nv_c10_inv_2 : Inv keqb mh.
Proof. exact (proj2 (C10.c10_inv keqb keqb_spec assignV) hist m0 nv_c10_inv_1 hist_ops_ok). Qed.

(* the state reached: a compaction happened (keys were replaced by the oracle order), 1 and 9 appended *)
Lemma mh_value : keys mh = [2; 6; 1; 9] /\
  data mh = [(6, (8, 60)); (2, (8, 9)); (1, (8, 232)); (9, (8, 9))] /\ vtype mh = 8.
Proof. vm_compute. repeat split. Qed.

(* c10_refine, every conjunct, on mh *)
Lemma nv_c10_refine :
  (* 1 *) get keqb zeroV (set keqb assignV mh 6 (0, 999)) 6 = ((8, 231), true) /\
  (* 2 *) get keqb zeroV (set keqb assignV mh 6 (0, 999)) 2 = ((8, 9), true) /\
  (* 3 *) get keqb zeroV (delete keqb mh 2 [9; 1; 6]) 2 = ((8, 0), false) /\
          get keqb zeroV (delete keqb mh 4 [9; 1; 6; 2]) 4 = ((8, 0), false) /\
  (* 4 *) get keqb zeroV (delete keqb mh 2 [9; 1; 6]) 1 = ((8, 232), true) /\
  (* 5 *) len (set keqb assignV mh 6 (0, 999)) = 4%nat /\ len (set keqb assignV mh 5 (0, 5)) = 5%nat /\
  (* 6 *) len (delete keqb mh 2 [9; 1; 6]) = 3%nat /\ len (delete keqb mh 5 [9; 1; 6; 2]) = 4%nat.
Proof.
  destruct (C10.c10_refine keqb keqb_spec assignV zeroV) as (R1 & R2 & R3 & R4 & R5 & R6).
  pose proof nv_c10_inv_2 as I. pose proof (proj1 (proj2 I)) as ND.
  pose proof (R1 mh 6 (0, 999)) as A1.
  pose proof (R2 mh 6 2 (0, 999) ltac:(discriminate)) as A2.
  pose proof (R3 mh 2 [9; 1; 6]) as A3.
  pose proof (R3 mh 4 [9; 1; 6; 2]) as A3'.
  pose proof (R4 mh 2 1 [9; 1; 6] ltac:(discriminate)) as A4.
  pose proof (R5 mh 6 (0, 999)) as A5. pose proof (R5 mh 5 (0, 5)) as A5'.
  pose proof (R6 mh 2 [9; 1; 6] I) as A6. pose proof (R6 mh 5 [9; 1; 6; 2] I) as A6'.
  exact (conj A1 (conj A2 (conj A3 (conj A3' (conj A4 (conj A5 (conj A5' (conj A6 A6')))))))).
Qed.

(* the map ranged over: literal, delete 1 2 3, re-insert 2: snapshot [1;2;3;4;5;6] with stale entries 1 and 3 *)
Definition mr : omap :=
  apply_all keqb assignV m0 [ODelete 1 [6; 5; 4; 3; 2]; ODelete 2 [6; 5; 4; 3]; ODelete 3 [4; 6; 5]; OSet 2 (0, 777)].
Lemma mr_inv : Inv keqb mr.
Proof.
  apply (proj2 (C10.c10_inv keqb keqb_spec assignV) _ m0 nv_c10_inv_1).
  vm_compute. repeat split; try perm_rev. apply perm_skip, perm_swap.
Qed.
Lemma mr_value : keys mr = [1; 2; 3; 4; 5; 6] /\ map fst (data mr) = [4; 5; 6; 2].
Proof. vm_compute. split; reflexivity. Qed.

(* the loop body really mutates the map between visits:
     at 2: delete the not-yet-visited key 5, insert the new key 7, re-insert the deleted key 3 (still in the snapshot)
     at 3: delete the not-yet-visited key 6
     at 4: delete 2 (already visited), delete 7 -> this delete COMPACTS (oracle order [3;4], data order [4;3]),
           then re-insert the deleted, not yet visited key 5
     at 5: update 5 *)
Definition body (k : Z) : list (@op Z V) :=
  if k =? 2 then [ODelete 5 [2; 6; 4]; OSet 7 (0, 70); OSet 3 (0, 33)]
  else if k =? 3 then [ODelete 6 [3; 7; 2; 4]]
  else if k =? 4 then [ODelete 2 [3; 7; 4]; ODelete 7 [3; 4]; OSet 5 (0, 55)]
  else if k =? 5 then [OSet 5 (0, 56)]
  else [].

(* body_ok unfolded: for each visit (next m r = Some (k,_,r')), ops_ok m (body k) /\ body_ok ... on the updated map;
   after vm_compute it is the conjunction of the six order_ok (Permutation) obligations of the deletes above *)
Lemma body_is_ok : body_ok keqb assignV (S (length (keys mr))) mr (keys mr) body.
Proof. vm_compute. repeat split; perm_rev. Qed.

Definition fuel := S (length (keys mr)).
Lemma range_value :
  fst (range_loop keqb assignV fuel mr (keys mr) body) = [2; 3; 4; 5] /\
  keys (snd (range_loop keqb assignV fuel mr (keys mr) body)) = [3; 4; 5] /\
  map (fun s => map fst (data s)) (states keqb assignV fuel mr (keys mr) body) =
    [[4; 5; 6; 2]; [4; 6; 2; 7; 3]; [4; 2; 7; 3]; [4; 3; 5]; [4; 3; 5]].
Proof. vm_compute. repeat split. Qed.

Lemma nv_c10_range :
  let vs := fst (range_loop keqb assignV fuel mr (keys mr) body) in
  NoDup vs /\ In 4 vs /\
  (forall k, In k vs -> exists s, In s (states keqb assignV fuel mr (keys mr) body) /\ live keqb s k) /\
  (forall k, In k vs -> In k (keys mr)).
Proof.
  destruct (C10.c10_range keqb assignV mr body mr_inv) as (C1 & C2 & C3 & C4).
  split; [exact C1|]. split; [|split; [exact C3 | exact C4]].
  (* conjunct 2: key 4 is live in every state of the loop *)
  apply C2. intros s Hs. vm_compute in Hs.
  repeat (destruct Hs as [<-|Hs]; [vm_compute; discriminate|]). destruct Hs.
Qed.

(* c10_range_live: the i-th visited key is live in the i-th state -- with the real fuel, the real (mutating) body *)
Lemma nv_c10_range_live :
  Forall2 (fun k s => live keqb s k) [2; 3; 4; 5] (firstn 4 (states keqb assignV fuel mr (keys mr) body)).
Proof.
  destruct (range_loop keqb assignV fuel mr (keys mr) body) as [vs mf] eqn:E.
  pose proof (C10.c10_range_live keqb assignV fuel mr (keys mr) body vs mf E) as L.
  assert (vs = [2; 3; 4; 5]) as -> by (vm_compute in E; congruence).
  exact L.
Qed.

(* the fuel S (length r) is always sufficient: range_loop / states never stop because of the fuel, so the "each key is
   visited" conjunct is not made true (or false) by fuel exhaustion.  Proved for every K, V, map, snapshot and body. *)
Section Fuel.
  Context {K W : Type} (eqb : K -> K -> bool) (asg : W -> Z -> W).
  Lemma next_shorter : forall (m : @omap K W) r k v r', next eqb m r = Some (k, v, r') -> (length r' < length r)%nat.
  Proof.
    intros m r k v r' E. pose proof (next_spec eqb m r) as N. rewrite E in N.
    destruct N as (pre & -> & _). rewrite app_length. cbn. lia.
  Qed.
  Lemma fuel_irrelevant : forall f1 f2 (m : @omap K W) r body, (length r < f1)%nat -> (length r < f2)%nat ->
    range_loop eqb asg f1 m r body = range_loop eqb asg f2 m r body /\
    states eqb asg f1 m r body = states eqb asg f2 m r body.
  Proof.
    induction f1 as [|f1 IH]; intros f2 m r body H1 H2; [lia|].
    destruct f2 as [|f2]; [lia|]. cbn [range_loop states].
    destruct (next eqb m r) as [[[k v] r']|] eqn:E; [|split; reflexivity].
    pose proof (next_shorter _ _ _ _ _ E).
    destruct (IH f2 (apply_all eqb asg m (body k)) r' body ltac:(lia) ltac:(lia)) as [-> ->]. split; reflexivity.
  Qed.
  (* with that fuel the loop ends only because the snapshot has no live key left *)
  Lemma loop_ends_by_exhausting_snapshot : forall f (m : @omap K W) r body, (length r < f)%nat ->
    exists r', next eqb (snd (range_loop eqb asg f m r body)) r' = None /\
               (length (fst (range_loop eqb asg f m r body)) + length r' <= length r)%nat.
  Proof.
    induction f as [|f IH]; intros m r body Hf; [lia|]. cbn [range_loop].
    destruct (next eqb m r) as [[[k v] r']|] eqn:E.
    - pose proof (next_shorter _ _ _ _ _ E).
      destruct (IH (apply_all eqb asg m (body k)) r' body ltac:(lia)) as (r'' & N & L).
      destruct (range_loop eqb asg f (apply_all eqb asg m (body k)) r' body) as [vs mf]. cbn [fst snd length] in *.
      exists r''. split; [exact N | lia].
    - exists r. cbn [fst snd length]. split; [exact E | lia].
  Qed.
End Fuel.

(* c10_range has no body_ok premise.  body_is_ok above shows that the witness body is also one for which c10_inv carries
   Inv through the loop; a body that is NOT body_ok (a delete with a bogus compaction order) still satisfies c10_range: *)
Definition bad_body (k : Z) : list (@op Z V) := if k =? 2 then [ODelete 5 [99; 98]] else [].
Lemma nv_c10_range_any_body :
  ~ body_ok keqb assignV fuel mr (keys mr) bad_body /\
  NoDup (fst (range_loop keqb assignV fuel mr (keys mr) bad_body)) /\
  fst (range_loop keqb assignV fuel mr (keys mr) bad_body) = [2; 4; 6].
Proof.
  split; [|split; [exact (proj1 (C10.c10_range keqb assignV mr bad_body mr_inv))|vm_compute; reflexivity]].
  vm_compute. intros H. decompose [and] H.
  match goal with P : Permutation _ _ |- _ => apply Permutation_length in P; discriminate P end.
Qed.

End M10.

(* the M14 lemmas list Coq's primitive float / int63 operations (the PrimFloat and PrimInt63 primitives) -- exactly the set that
   Print Assumptions shows for C14.c14_total etc. themselves ([value] contains a float); nothing else.  M10: closed. *)
Print Assumptions M14.nv_c14_total_2.
Print Assumptions M14.nv_c14_println.
Print Assumptions M14.nv_c14_nested.
Print Assumptions M10.nv_c10_range.
Print Assumptions M10.nv_c10_refine.
Print Assumptions M10.nv_c10_range_live.
