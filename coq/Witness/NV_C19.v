(* NV_C19 -- the theorems of Props/C19.v on concrete data (embedding API: round trips, NewFunc adapters,
   call / callReady, VM.Func, bound methods, error propagation).
   Every conjunct of every C19 theorem that carries premises is instantiated below with
   concrete, non-trivial witnesses (non-empty stack prefix, argc >= 2, script-like bodies that
   really inspect their arguments, variadic functions with typed element type, a registered
   inner script function that panics) and the Props theorem is APPLIED to obtain the concrete
   conclusion.  The lemmas named remark_* show where a statement is narrower than its wording. *)
From Coq Require Import ZArith List Bool Floats Lia.
From GV Require Import GoSpec.GoPrim Gen.ValueOps_gen Model.Call Proofs.C19_roundtrip Proofs.C19_adapter Props.C19.
Import ListNotations.
Open Scope Z_scope.

Definition i (x : Z) : cell := CVal (fn_Int32 x).                      (* int32 x *)
Definition u (x : Z) : cell := CVal (fn_newUntypedInt x).             (* untyped constant x *)
Definition fl (x : Z) : cell := CVal (fn_Float64 (Zn x)).             (* float64 x.0 *)
Definition str (s : list Z) : cell := CVal (fn_String s).
Definition obj : cell := CVal (mkValue TypeStruct (Zn 0) (PRef 1)).   (* a receiver object *)

(* what lies below the call: NOT empty *)
Definition below : list cell := [i 100; str [104; 105]].

(* native callbacks (they inspect their arguments; they can fail) *)
Definition cb0 (a : list cell) : cres unit :=
  if slen a =? 2 then Good tt else Fail (ERaised a).
Definition cb1 (a : list cell) : cres cell :=
  match a with
  | [CVal x; CVal y] => Good (i (Value_Int32 x + Value_Int32 y))
  | _ => Fail (ERaised a)
  end.
Definition cbM (a : list cell) : cres (list cell) := Good (rev a ++ [i (slen a)]).
Definition cbV (fixed va : list cell) : cres (list cell) :=
  if slen va <? 3 then Fail (ERaised va) else Good (fixed ++ va).
Definition cbDiv (a : list cell) : cres cell :=
  match a with
  | [CVal x; CVal y] => if Value_Int32 y =? 0 then Fail (ERaised [str [100; 105; 118]])
                        else Good (i (Z.quot (Value_Int32 x) (Value_Int32 y)))
  | _ => Fail (ERaised a)
  end.

(* "compiled bodies" of script functions *)
Definition add_code (a : list cell) : cres (list cell) :=
  match a with
  | [CVal x; CVal y] => Good [i (Value_Int32 x + Value_Int32 y)]
  | _ => Fail (ERaised a)
  end.
Definition div_code (a : list cell) : cres (list cell) :=
  match a with
  | [CVal x; CVal y] => if Value_Int32 y =? 0 then Fail (ERaised [str [100; 105; 118]])
                        else Good [i (Z.quot (Value_Int32 x) (Value_Int32 y))]
  | _ => Fail (ERaised a)
  end.
Definition swap_code (a : list cell) : cres (list cell) :=
  match a with [x; y] => Good [y; x] | _ => Fail (ERaised a) end.
(* variadic body: receiver/first, second, packed slice -> one slice holding everything it saw; when the
   variadic parameter is a NIL slice (no surplus argument) the answer is tagged with the nil value's own
   tag (the slice type, not the element type), so the two cases cannot be confused *)
Definition vcode (a : list cell) : cres (list cell) :=
  match a with
  | [r; b; CPack et items] => Good [CPack et (r :: b :: items)]
  | [r; b; CVal v] => match vval v with PNone => Good [CPack (vt v) [r; b]] | _ => Fail (ERaised a) end
  | _ => Fail (ERaised a)
  end.

Definition sfn  : funcT := script_fn 2 1 [TypeInt32; TypeInt32] [TypeInt32] add_code.
Definition dfn  : funcT := script_fn 2 1 [TypeInt32; TypeInt32] [TypeInt32] div_code.
Definition swfn : funcT := script_fn 2 2 [TypeStruct; TypeInt32] [TypeInt32; TypeStruct] swap_code.
(* a script function  func(a, b int32, rest ...float64)  : Args = 3, Variadic *)
Definition vfn : funcT :=
  mkFuncT 3 1 true (fn_sliceType TypeFloat64)
          (mkFunc 3 1 [TypeInt32; TypeInt32] [] vcode).

Lemma add_code_rets : forall a outs, add_code a = Good outs -> slen outs = 1.
Proof. intros [|[x| |] [|[y| |] [|]]] outs [= <-]. reflexivity. Qed.
Lemma div_code_rets : forall a outs, div_code a = Good outs -> slen outs = 1.
Proof.
  intros [|[x| |] [|[y| |] [|]]] outs; try discriminate. unfold div_code.
  destruct (Value_Int32 y =? 0); intros [= <-]. reflexivity.
Qed.
Lemma swap_code_rets : forall a outs, swap_code a = Good outs -> slen outs = 2.
Proof. intros [|x [|y [|]]] outs [= <-]. reflexivity. Qed.

(* `<~` : Fail propagates, the continuation is never run, no Good can be fabricated *)
Lemma nv_cbind_fail : forall A B (k : A -> cres B) e, (x <~ Fail e ;; k x) = Fail e.
Proof. reflexivity. Qed.

(* c19_roundtrip / c19_roundtrip_wide: the in_range premises are satisfiable at BOTH boundaries of every
   domain (closed intervals), and by interior values *)

Lemma nv_c19_roundtrip :
  Value_Int32 (fn_Int32 (-2147483648)) = -2147483648 /\ Value_Int32 (fn_Int32 2147483647) = 2147483647 /\
  Value_Int32 (fn_Int32 (-7)) = -7 /\
  Value_Uint32 (fn_Uint32 0) = 0 /\ Value_Uint32 (fn_Uint32 4294967295) = 4294967295 /\
  Value_Int8 (fn_Int8 (-128)) = -128 /\ Value_Int8 (fn_Int8 127) = 127 /\
  Value_Byte (fn_Byte 0) = 0 /\ Value_Byte (fn_Byte 255) = 255 /\
  Value_Uint8 (fn_Uint8 255) = 255 /\
  Value_Bool (fn_Bool true) = true /\ Value_Bool (fn_Bool false) = false /\
  Value_Float64 (fn_Float64 (Fn 1.5%float)) = Fn 1.5%float /\
  Value_Float64 (fn_Float64 (Fn PrimFloat.nan)) = Fn PrimFloat.nan /\
  Value_Float64 (fn_Float64 (Fn PrimFloat.neg_zero)) = Fn PrimFloat.neg_zero /\
  as_str (vval (fn_String [104; 105; 255])) = Ok [104; 105; 255].
Proof.
  destruct c19_roundtrip as (R1 & R2 & R3 & R4 & R5 & R6 & R7 & R8).
  repeat apply conj.
  1-3: now apply R1. 1-2: now apply R2. 1-2: now apply R3. 1-2: now apply R4. 1: now apply R5.
  1-2: apply R6. 1-3: apply R7. apply (R8 [104; 105; 255]).
Qed.

(* the premise is not decoration: just outside the domain the (model of the) conversion is not the
   identity -- the amd64 "integer indefinite" for int32, truncation for the 8-bit types *)
Lemma nv_c19_roundtrip_outside :
  Value_Int32 (fn_Int32 2147483648) = -2147483648 /\ Value_Int8 (fn_Int8 128) = -128 /\
  Value_Byte (fn_Byte 256) = 0 /\ Value_Uint32 (fn_Uint32 (-1)) = 4294967295.
Proof. vm_compute. repeat split; reflexivity. Qed.

Lemma nv_c19_roundtrip_wide :
  Value_Int (fn_Int 2147483647) = 2147483647 /\ Value_Int (fn_Int (-2147483648)) = -2147483648 /\
  Value_Int (fn_Int 2147483648) = -2147483648 /\ Value_Int (fn_Int 9223372036854775807) = -1 /\
  Value_Uint (fn_Uint 4294967295) = 4294967295 /\ Value_Uint (fn_Uint 0) = 0 /\
  Value_Uint (fn_Uint 4294967296) = 0 /\
  Value_Int32 (fn_Int 4294967298) = 2 /\ Value_Uint32 (fn_Uint (-1)) = 4294967295 /\
  Value_Int (fn_Int32 (-2147483648)) = -2147483648 /\ Value_Uint (fn_Uint32 4294967295) = 4294967295.
Proof.
  destruct c19_roundtrip_wide as (W1 & W2 & W3 & W4 & W5 & W6 & W7 & W8).
  repeat apply conj.
  1-2: now apply W2. 1-2: now rewrite W1. 1-2: now apply W4. 1: now rewrite W3.
  1: now rewrite W5. 1: now rewrite W6. 1: now apply W7. now apply W8.
Qed.

(* REMARK (float conjunct).  fn_Float64 takes a [num]; the theorem is stated for [Fn f] payloads only.
   On the other representation of a float64 ([Zn z] = "a float64 holding the integer z", which is what
   the rest of the development uses for integer-valued numbers) the round trip is NOT the syntactic
   identity: mkV normalises the payload of a float64-tagged value to [Fn].  It is the identity only up
   to [num_same].  Harmless (every Go float64 is some [Fn f]): "every value of a constructor's
   domain" in the comment of Props/C19.c19_roundtrip reads "every Fn f" for Float64. *)
Lemma remark_c19_roundtrip_float_Zn :
  Value_Float64 (fn_Float64 (Zn 3)) <> Zn 3 /\
  num_same (Value_Float64 (fn_Float64 (Zn 3))) (Zn 3) = true.
Proof. split; [discriminate | reflexivity]. Qed.

Lemma nv_c19_adapter :
  Body (NewFunc 2 0 (NN0 cb0)) (below ++ [i 6; i 7]) = Good below /\
  Body (NewFunc 2 1 (NN1 cb1)) (below ++ [i 6; i 7]) = Good (below ++ [i 13]) /\
  Body (NewFunc 2 1 (NN1 cb1)) (below ++ [i 6; CFn 4]) = Fail (ERaised [i 6; CFn 4]) /\
  Body (NewFunc 2 3 (NNM cbM)) (below ++ [i 6; i 7]) = Good (below ++ [i 7; i 6; i 2]) /\
  Body (NewFunc 2 4 (NNV cbV)) (below ++ [i 6] ++ [CPack TypeInt32 [i 1; i 2; i 3]]) =
    Good (below ++ [i 6; i 1; i 2; i 3]) /\
  Body (NewFunc 2 4 (NNV cbV)) (below ++ [i 6] ++ [CPack TypeInt32 [i 1]]) = Fail (ERaised [i 1]) /\
  Body (NewFunc 2 0 (N00 (Good tt))) below = Good below /\
  Body (NewFunc 2 1 (N01 (Good (i 5)))) below = Good (below ++ [i 5]).
Proof.
  destruct (c19_adapter 2 0 below) as (A00 & _ & ANN0 & _), (c19_adapter 2 1 below) as (_ & A01 & _ & ANN1 & _),
    (c19_adapter 2 3 below) as (_ & _ & _ & _ & ANNM & _), (c19_adapter 2 4 below) as (_ & _ & _ & _ & _ & ANNV).
  repeat apply conj.
  - now rewrite ANN0.
  - now rewrite ANN1.
  - now rewrite ANN1.
  - now rewrite ANNM.
  - now rewrite ANNV.
  - now rewrite ANNV.
  - now rewrite A00.
  - now rewrite A01.
Qed.

Lemma nv_c19_fields :
  Args (NewFunc 2 1 (NN1 cb1)) = 2 /\ Rets (NewFunc 2 1 (NN1 cb1)) = 1 /\ Variadic (NewFunc 2 1 (NN1 cb1)) = false /\
  Args (NewFunc 2 4 (NNV cbV)) = 2 /\ Variadic (NewFunc 2 4 (NNV cbV)) = true /\
  VariadicType (NewFunc 2 4 (NNV cbV)) = 0 /\ Variadic (NewFunc 0 4 (NNV cbV)) = false.
Proof.
  destruct (c19_fields 2 1 (NN1 cb1)) as (F1 & F2 & _ & F4); [lia|].
  destruct (c19_fields 2 4 (NNV cbV)) as (G1 & _ & G3 & G4); [lia|].
  destruct (c19_fields 0 4 (NNV cbV)) as (_ & _ & _ & K4); [lia|].
  repeat split; assumption.
Qed.

(* conjunct 1 *)
Lemma nv_c19_call_1 : callReady (below ++ [i 6; i 7; i 8]) sfn 3 1 = Fail EIncorrectArgs.
Proof. destruct c19_call as (C1 & _). apply C1. cbn. lia. Qed.

(* conjunct 2 with a script function (mkFunc body): premise  Body ft (lo ++ args) = Good (lo ++ outs)
   holds with lo = below (non-empty), untyped argument assigned to int32; three values of xRets *)
Lemma nv_c19_call_2 :
  Body sfn (below ++ [u 6; i 7]) = Good (below ++ [i 13]) /\
  callReady (below ++ [u 6; i 7]) sfn 2 1 = Good (below ++ [i 13]) /\
  callReady (below ++ [u 6; i 7]) sfn 2 0 = Good below /\
  callReady (below ++ [u 6; i 7]) sfn 2 2 = Fail EIncorrectReturns /\
  callReady (below ++ [obj; u 7]) swfn 2 1 = Good (below ++ [i 7]) /\
  callReady (below ++ [obj; u 7]) swfn 2 2 = Good (below ++ [i 7; obj]).
Proof.
  destruct c19_call as (_ & C2 & _).
  pose proof (fun x => C2 below [u 6; i 7] [i 13] sfn x eq_refl eq_refl) as Cs.
  pose proof (fun x => C2 below [obj; u 7] [i 7; obj] swfn x eq_refl eq_refl) as Cw.
  repeat apply conj; [reflexivity | ..].
  - exact (eq_trans (Cs 1 ltac:(lia)) eq_refl).
  - exact (eq_trans (Cs 0 ltac:(lia)) eq_refl).
  - exact (eq_trans (Cs 2 ltac:(lia)) eq_refl).
  - exact (eq_trans (Cw 1 ltac:(lia)) eq_refl).
  - exact (eq_trans (Cw 2 ltac:(lia)) eq_refl).
Qed.

(* conjunct 3 *)
Lemma nv_c19_call_3 : call (below ++ [u 6; i 7]) sfn 2 1 = Good (below ++ [i 13]).
Proof.
  destruct c19_call as (_ & _ & C3 & _). rewrite C3 by reflexivity.
  apply nv_c19_call_2.
Qed.

(* conjunct 4: a variadic SCRIPT function with element type float64, Args = 3, two fixed and two
   surplus (untyped) arguments, non-empty prefix; the surplus arrives as ONE []float64 *)
Lemma nv_c19_call_4 :
  Variadic vfn = true /\ slen [i 1; i 2] = Args vfn - 1 /\
  call (below ++ [i 1; i 2] ++ [u 3; u 4]) vfn 4 1 =
    callReady (below ++ [i 1; i 2] ++ [CPack TypeFloat64 [fl 3; fl 4]]) vfn 3 1 /\
  call (below ++ [i 1; i 2] ++ [u 3; u 4]) vfn 4 1 =
    Good (below ++ [CPack TypeFloat64 [i 1; i 2; fl 3; fl 4]]).
Proof.
  destruct c19_call as (_ & _ & _ & C4 & _).
  pose proof (C4 below [i 1; i 2] [u 3; u 4] vfn 1 eq_refl eq_refl ltac:(cbn; lia)) as H.
  repeat apply conj; [reflexivity | reflexivity | exact H | exact (eq_trans H eq_refl)].
Qed.

(* conjunct 5: the same function without surplus argument: the variadic parameter is the NIL []float64
   (the body sees a value, not a packed slice: its answer carries the slice type tag) *)
Lemma nv_c19_call_5 :
  call (below ++ [i 1; i 2]) vfn 2 1 =
    callReady (below ++ [i 1; i 2] ++ [CVal (mkValue (fn_sliceType TypeFloat64) (Zn 0) PNone)]) vfn 3 1 /\
  call (below ++ [i 1; i 2]) vfn 2 1 = Good (below ++ [CPack (fn_sliceType TypeFloat64) [i 1; i 2]]) /\
  call (below ++ [i 1; i 2]) vfn 2 1 <> Good (below ++ [CPack TypeFloat64 [i 1; i 2]]).
Proof.
  destruct c19_call as (_ & _ & _ & _ & C5 & _).
  pose proof (C5 below [i 1; i 2] vfn 1 eq_refl eq_refl) as H.
  repeat apply conj; [exact H | exact (eq_trans H eq_refl) | vm_compute; discriminate].
Qed.

(* conjunct 6 *)
Lemma nv_c19_call_6 : call (below ++ [i 1]) vfn 1 1 = Fail (ERuntime 2).
Proof. destruct c19_call as (_ & _ & _ & _ & _ & C6). apply C6; [reflexivity | cbn; lia]. Qed.

Lemma nv_c19_native_call :
  call (below ++ [i 6; i 7]) (NewFunc 2 1 (NN1 cb1)) 2 1 = Good (below ++ [i 13]) /\
  call (below ++ [i 6; i 7]) (NewFunc 2 3 (NNM cbM)) 2 2 = Good (below ++ [i 7; i 6]) /\
  call (below ++ [i 6; i 7]) (NewFunc 2 3 (NNM cbM)) 2 4 = Fail EIncorrectReturns /\
  call (below ++ [i 6; i 7; i 8]) (NewFunc 2 1 (NN1 cb1)) 3 1 = Fail EIncorrectArgs /\
  call (below ++ [i 6] ++ [u 1; u 2; i 3]) (NewFunc 2 4 (NNV cbV)) 4 4 = Good (below ++ [i 6; i 1; i 2; i 3]) /\
  call (below ++ [i 6] ++ [u 1; u 2; i 3]) (NewFunc 2 4 (NNV cbV)) 4 2 = Good (below ++ [i 6; i 1]) /\
  callReady (below ++ [i 6] ++ [CPack TypeFloat64 [fl 1; fl 2; fl 3]]) (NewFunc 2 4 (NNV cbV)) 2 4 =
    Good (below ++ [i 6; fl 1; fl 2; fl 3]).
Proof.
  destruct c19_native_call as (N1 & N2 & N3 & N4).
  repeat apply conj.
  1-3: now rewrite (N1 2 _ _ below [i 6; i 7]) by (reflexivity || lia).
  - apply N2; [reflexivity | lia | lia].
  - exact (eq_trans (N3 2 4 cbV below [i 6] [u 1; u 2; i 3] 4 eq_refl ltac:(lia)) eq_refl).
  - exact (eq_trans (N3 2 4 cbV below [i 6] [u 1; u 2; i 3] 2 eq_refl ltac:(lia)) eq_refl).
  - now rewrite (N4 2 4 cbV below [i 6]) by (reflexivity || lia).
Qed.

(* conjunct 2 of c19_frames: the premise on [code] holds for code that really computes (and can fail) *)
Lemma nv_c19_frames_2 :
  frame_ok sfn (Args sfn) (fun a => outs <~ add_code (assign_zip [TypeInt32; TypeInt32] a) ;; Good (assign_zip [TypeInt32] outs)) /\
  frame_ok dfn (Args dfn) (fun a => outs <~ div_code (assign_zip [TypeInt32; TypeInt32] a) ;; Good (assign_zip [TypeInt32] outs)) /\
  frame_ok swfn (Args swfn) (fun a => outs <~ swap_code (assign_zip [TypeStruct; TypeInt32] a) ;; Good (assign_zip [TypeInt32; TypeStruct] outs)).
Proof.
  destruct c19_frames as (_ & F2).
  split; [|split].
  - apply F2; [lia | exact add_code_rets].
  - apply F2; [lia | exact div_code_rets].
  - apply F2; [lia | exact swap_code_rets].
Qed.

(* frame_ok unfolded on the witnesses: it is a statement about every prefix, instantiated here *)
Lemma nv_c19_frames_1 :
  Body (NewFunc 2 1 (NN1 cb1)) (below ++ [i 6; i 7]) = Good (below ++ [i 13]) /\
  Body sfn ([obj; obj; obj] ++ [u 6; i 7]) = Good ([obj; obj; obj] ++ [i 13]) /\
  Body dfn (below ++ [u 6; i 0]) = Fail (ERaised [str [100; 105; 118]]).
Proof.
  destruct c19_frames as (F1 & _). destruct nv_c19_frames_2 as (S1 & S2 & _).
  split. { rewrite (F1 2 1 (NN1 cb1) below [i 6; i 7] eq_refl). reflexivity. }
  split. { rewrite (S1 [obj; obj; obj] [u 6; i 7] eq_refl). reflexivity. }
  rewrite (S2 below [u 6; i 0] eq_refl). reflexivity.
Qed.

(* frame_ok is NOT restricted to natives / script functions: any body that works on its top
   [Args] cells only has it (here: a hand-made funcT duplicating its single argument) *)
Lemma nv_frame_ok_other :
  frame_ok (mkFuncT 1 2 false 0 (fun st => match rev st with x :: r => Good (rev r ++ [x; x]) | [] => Fail (ERuntime 3) end))
           1 (fun a => match a with [x] => Good [x; x] | _ => Fail (ERuntime 3) end).
Proof.
  intros l a Ha. destruct a as [|x [|y a']];
    [discriminate Ha | | exfalso; unfold slen in Ha; cbn [length] in Ha; lia].
  cbn [Body]. rewrite rev_app_distr. cbn. now rewrite rev_involutive.
Qed.

(* REMARK (c19_frames): for script functions the frame property is conditional on  forall a outs, code a = Good outs -> slen outs = rets ; the
   condition is not redundant: a body that leaves FEWER than [rets] values makes mkFunc take (and
   re-assign) cells that belong to the caller, and then no [g] at all gives frame_ok. *)
Lemma remark_c19_frames_needs_rets :
  forall g, ~ frame_ok (script_fn 0 1 [] [TypeFloat64] (fun _ => Good [])) 0 g.
Proof.
  intros g H. specialize (H [u 3] [] eq_refl).
  change (Body (script_fn 0 1 [] [TypeFloat64] (fun _ => Good [])) ([u 3] ++ [])) with (Good [fl 3]) in H.
  destruct (g []) as [r|e]; cbn in H; [|discriminate H].
  injection H as H _. discriminate H.
Qed.

Definition envF : Z -> option funcT := fun h =>
  if h =? 1 then Some sfn else if h =? 2 then Some (NewFunc 2 4 (NNV cbV))
  else if h =? 3 then Some (NewFunc 2 3 (NNM cbM)) else if h =? 4 then Some dfn else None.

Lemma nv_c19_func_1 :
  vm_func envF (CFn 3) 2 [i 6; i 7] = Good [i 7; i 6] /\
  (forall rs, vm_func envF (CFn 3) 2 [i 6; i 7] = Good rs -> slen rs = 2).
Proof.
  split; [reflexivity|]. intros rs H. destruct (c19_func envF) as (L & _). exact (L _ _ _ _ H).
Qed.

(* conjunct 2, premises discharged through c19_frames (script function AND native) *)
Lemma nv_c19_func_2 :
  vm_func envF (CFn 1) 1 [u 6; i 7] = Good [i 13] /\
  vm_func envF (CFn 1) 0 [u 6; i 7] = Good [] /\
  vm_func envF (CFn 1) 2 [u 6; i 7] = Fail EIncorrectReturns /\
  vm_func envF (CFn 4) 1 [i 6; u 0] = Fail (ERaised [str [100; 105; 118]]) /\
  vm_func envF (CFn 4) 1 [i 7; u 2] = Good [i 3] /\
  vm_func envF (CFn 3) 2 [i 6; i 7] = Good [i 7; i 6].
Proof.
  destruct (c19_func envF) as (_ & V2 & _). destruct nv_c19_frames_2 as (S1 & S2 & _).
  destruct c19_frames as (F1 & _).
  repeat apply conj.
  1-3: now rewrite (V2 1 sfn _ _ [u 6; i 7] eq_refl eq_refl S1 eq_refl) by lia.
  - now rewrite (V2 4 dfn _ 1 [i 6; u 0] eq_refl eq_refl S2 eq_refl) by lia.
  - now rewrite (V2 4 dfn _ 1 [i 7; u 2] eq_refl eq_refl S2 eq_refl) by lia.
  - now rewrite (V2 3 _ _ 2 [i 6; i 7] eq_refl eq_refl (F1 2 3 (NNM cbM)) eq_refl) by lia.
Qed.

Lemma nv_c19_func_345 :
  vm_func envF (CFn 2) 3 ([i 6] ++ [u 1; u 2; i 3]) = Good [i 6; i 1; i 2] /\
  vm_func envF (CFn 2) 1 ([i 6] ++ [u 1]) = Fail (ERaised [i 1]) /\
  vm_func envF (CFn 1) 1 [i 6] = Fail EIncorrectArgs /\
  vm_func envF (CFn 1) 1 [i 6; i 7; i 8] = Fail EIncorrectArgs /\
  vm_func envF (CFn 9) 1 [i 6] = Fail (ERuntime 4) /\
  vm_func envF (i 5) 1 [i 6] = Fail (ERuntime 4) /\
  vm_func envF (CPack 0 []) 1 [i 6] = Fail (ERuntime 4).
Proof.
  destruct (c19_func envF) as (_ & _ & V3 & V4 & V5).
  repeat apply conj.
  1-2: now rewrite (V3 2 2 4 cbV _ [i 6] _ eq_refl eq_refl) by lia.
  1-2: apply (V4 1 sfn); [reflexivity | reflexivity | cbn; lia].
  - apply V5. reflexivity.
  - apply V5. exact I.
  - apply V5. exact I.
Qed.

(* conjunct 1: underlying function = a 2-argument script function (receiver, x) -> (x, receiver) *)
Lemma nv_c19_method_1 :
  Variadic swfn = false /\ 1 <= Args swfn /\
  call (below ++ [u 7]) (newMethod obj swfn) 1 2 = call (below ++ [obj] ++ [u 7]) swfn 2 2 /\
  call (below ++ [u 7]) (newMethod obj swfn) 1 2 = Good (below ++ [i 7; obj]) /\
  (* wrong number of arguments: same error on both sides *)
  call (below ++ [u 7; u 8]) (newMethod obj swfn) 2 2 = Fail EIncorrectArgs.
Proof.
  destruct c19_method as (M1 & _).
  assert (1 <= Args swfn) as HA by (cbn; lia).
  pose proof (fun args => M1 obj swfn below args 2 eq_refl HA) as M.
  repeat apply conj; [reflexivity | exact HA | exact (M [u 7]) | ..].
  - exact (eq_trans (M [u 7]) eq_refl).
  - exact (eq_trans (M [u 7; u 8]) eq_refl).
Qed.

(* conjuncts 2 and 3: underlying function = vfn (Args = 3 >= 2, Variadic, ...float64):
   one fixed argument, two surplus untyped arguments, non-empty prefix *)
Lemma nv_c19_method_23 :
  Variadic vfn = true /\ 2 <= Args vfn /\ slen [i 2] = Args vfn - 2 /\
  call (below ++ [i 2] ++ [u 3; u 4]) (newMethod obj vfn) 3 1 =
    call (below ++ [obj] ++ [i 2] ++ [u 3; u 4]) vfn 4 1 /\
  call (below ++ [i 2] ++ [u 3; u 4]) (newMethod obj vfn) 3 1 =
    callReady (below ++ [obj] ++ [i 2] ++ [CPack TypeFloat64 [fl 3; fl 4]]) vfn 3 1 /\
  call (below ++ [i 2] ++ [u 3; u 4]) (newMethod obj vfn) 3 1 =
    Good (below ++ [CPack TypeFloat64 [obj; i 2; fl 3; fl 4]]).
Proof.
  destruct c19_method as (_ & M2 & M3 & _).
  assert (2 <= Args vfn) as HA by (cbn; lia).
  pose proof (M3 obj vfn below [i 2] [u 3; u 4] 1 eq_refl HA eq_refl ltac:(cbn; lia)) as H3.
  repeat apply conj; [reflexivity | exact HA | reflexivity | | exact H3 | exact (eq_trans H3 eq_refl)].
  exact (M2 obj vfn below [i 2] [u 3; u 4] 1 eq_refl HA eq_refl).
Qed.

(* conjuncts 2 and 4: the same method without surplus argument: the nil []float64, exactly as the
   underlying function called with the receiver and the fixed argument *)
Lemma nv_c19_method_24 :
  call (below ++ [i 2] ++ []) (newMethod obj vfn) 1 1 = call (below ++ [obj] ++ [i 2] ++ []) vfn 2 1 /\
  call (below ++ [i 2]) (newMethod obj vfn) 1 1 =
    callReady (below ++ [obj] ++ [i 2] ++ [CVal (mkValue (fn_sliceType TypeFloat64) (Zn 0) PNone)]) vfn 3 1 /\
  call (below ++ [i 2]) (newMethod obj vfn) 1 1 = Good (below ++ [CPack (fn_sliceType TypeFloat64) [obj; i 2]]).
Proof.
  destruct c19_method as (_ & M2 & _ & M4).
  assert (2 <= Args vfn) as HA by (cbn; lia).
  pose proof (M4 obj vfn below [i 2] 1 eq_refl HA eq_refl) as H4.
  repeat apply conj; [| exact H4 | exact (eq_trans H4 eq_refl)].
  exact (M2 obj vfn below [i 2] [] 1 eq_refl HA eq_refl).
Qed.

(* also with a variadic NATIVE below the method (NewFunc 3 _ (NNV _)) *)
Lemma nv_c19_method_2_native :
  call (below ++ [i 2] ++ [u 3; u 4; u 5]) (newMethod obj (NewFunc 3 5 (NNV cbV))) 4 5 =
    Good (below ++ [obj; i 2; i 3; i 4; i 5]).
Proof.
  destruct c19_method as (_ & M2 & _).
  refine (eq_trans (M2 obj (NewFunc 3 5 (NNV cbV)) below [i 2] [u 3; u 4; u 5] 5 eq_refl _ eq_refl) _);
    [cbn; lia | reflexivity].
Qed.

Definition edivz : cerr := ERaised [str [100; 105; 118]].

Lemma nv_c19_error_1 :
  lift (NN1 cbDiv) [i 6; i 0] = Fail edivz /\
  call (below ++ [i 6; i 0]) (NewFunc 2 1 (NN1 cbDiv)) 2 1 = Fail edivz /\
  (* the same native succeeds on other arguments *)
  call (below ++ [i 6; i 3]) (NewFunc 2 1 (NN1 cbDiv)) 2 1 = Good (below ++ [i 2]).
Proof.
  destruct c19_error as (E1 & _).
  split; [reflexivity|]. split; [|reflexivity].
  apply E1; [reflexivity | reflexivity | lia | reflexivity].
Qed.

Lemma nv_c19_error_2 :
  call (below ++ [i 6] ++ [u 1; u 2]) (NewFunc 2 4 (NNV cbV)) 3 1 = Fail (ERaised [i 1; i 2]).
Proof.
  destruct c19_error as (_ & E2 & _).
  apply (E2 2 4 cbV below [i 6] [u 1; u 2] 1); [reflexivity | lia | reflexivity].
Qed.

Lemma nv_c19_error_3 :
  Body dfn [i 6; u 0] = Fail edivz /\ vm_func envF (CFn 4) 1 [i 6; u 0] = Fail edivz.
Proof.
  destruct c19_error as (_ & _ & E3 & _).
  split; [reflexivity|]. apply (E3 envF 4 dfn); reflexivity.
Qed.

(* conjunct 4: the outer native (3 arguments) picks its first two arguments and hands them to the
   registered script function dfn through VM.Func (k = 1 result), then continues with [c].
   sel is NOT constant.  One instance for each of nested0 / nested1 / nestedM, each of them also
   registered in the SAME env (handles 8, 9, 10), so that the second half of the conclusion fires. *)
Definition nilc : cell := CVal fn_Nil.
Definition sel2 (a : list cell) : list cell := [nth 0 a nilc; nth 1 a nilc].
Definition c0 (a rs : list cell) : cres unit := Good tt.
Definition c1 (a rs : list cell) : cres cell := Good (nth 0 rs nilc).
Definition cMm (a rs : list cell) : cres (list cell) := Good (a ++ rs).

Definition env0 : Z -> option funcT := fun h => if h =? 7 then Some dfn else None.
Definition envN : Z -> option funcT := fun h =>
  if h =? 7 then Some dfn
  else if h =? 8 then Some (NewFunc 3 4 (nestedM env0 7 1 sel2 cMm))
  else if h =? 9 then Some (NewFunc 3 0 (nested0 env0 7 1 sel2 c0))
  else if h =? 10 then Some (NewFunc 3 1 (nested1 env0 7 1 sel2 c1))
  else None.

(* the self-referential premise  env hout = Some (NewFunc argc rets (nestedX env ...))  holds by
   conversion, because sel2 exposes the spine of the list it answers *)
Lemma envN_self :
  envN 8 = Some (NewFunc 3 4 (nestedM envN 7 1 sel2 cMm)) /\
  envN 9 = Some (NewFunc 3 0 (nested0 envN 7 1 sel2 c0)) /\
  envN 10 = Some (NewFunc 3 1 (nested1 envN 7 1 sel2 c1)).
Proof. repeat split; reflexivity. Qed.

Lemma nv_c19_error_4 :
  (* premises *)
  envN 7 = Some dfn /\ Variadic dfn = false /\ slen (sel2 [i 6; u 0; i 99]) = Args dfn /\
  Body dfn (sel2 [i 6; u 0; i 99]) = Fail edivz /\
  (* conclusions, nestedM / nested0 / nested1 *)
  call (below ++ [i 6; u 0; i 99]) (NewFunc 3 4 (nestedM envN 7 1 sel2 cMm)) 3 4 = Fail edivz /\
  vm_func envN (CFn 8) 4 [i 6; u 0; i 99] = Fail edivz /\
  call (below ++ [i 6; u 0; i 99]) (NewFunc 3 0 (nested0 envN 7 1 sel2 c0)) 3 0 = Fail edivz /\
  vm_func envN (CFn 9) 0 [i 6; u 0; i 99] = Fail edivz /\
  call (below ++ [i 6; u 0; i 99]) (NewFunc 3 1 (nested1 envN 7 1 sel2 c1)) 3 1 = Fail edivz /\
  vm_func envN (CFn 10) 1 [i 6; u 0; i 99] = Fail edivz /\
  (* the same natives succeed when the inner call succeeds: the continuation is run *)
  vm_func envN (CFn 8) 4 [i 6; u 2; i 99] = Good [i 6; u 2; i 99; i 3] /\
  vm_func envN (CFn 10) 1 [i 6; u 2; i 99] = Good [i 3] /\
  vm_func envN (CFn 9) 0 [i 6; u 2; i 99] = Good [].
Proof.
  destruct c19_error as (_ & _ & _ & E4). destruct envN_self as (S8 & S9 & S10).
  assert (Body dfn (sel2 [i 6; u 0; i 99]) = Fail edivz) as HB by reflexivity.
  pose proof (fun hout rets n => E4 envN envN 7 1 sel2 hout 3 rets n below [i 6; u 0; i 99] rets edivz dfn
                                eq_refl eq_refl eq_refl HB) as E.
  destruct (E 8 4 (nestedM envN 7 1 sel2 cMm)) as (A1 & A2); [right; right; eexists; reflexivity | reflexivity | lia |].
  destruct (E 9 0 (nested0 envN 7 1 sel2 c0)) as (B1 & B2); [left; eexists; reflexivity | reflexivity | lia |].
  destruct (E 10 1 (nested1 envN 7 1 sel2 c1)) as (C1 & C2); [right; left; eexists; reflexivity | reflexivity | lia |].
  repeat apply conj;
    [reflexivity | reflexivity | reflexivity | exact HB | exact A1 | exact (A2 S8) | exact B1 | exact (B2 S9) | exact C1
     | exact (C2 S10) | reflexivity ..].
Qed.

(* (c19_error conjunct 4, second half)  With env2 = env the premise
   env hout = Some (NewFunc argc rets n)  with  n = nestedX env hin k sel c  is self-referential in env (the
   closure stored in env mentions env).  Axiom-free it can only be established by CONVERSION, i.e. for
   selections whose result has a literal spine (sel2 above; constants); for  sel = id / firstn 2 / skipn 1 ...
   the two closures differ by a stuck  pop (sel a ++ [CFn hin])  and the premise needs functional
   extensionality.  Hence c19_error quantifies over the table env2 in which the OUTER function is looked up. *)

(* a selection that is NOT spine-transparent (sel = firstn 2), outer function registered in
   an extension of the env its closure captured *)
Definition envX : Z -> option funcT := fun h =>
  if h =? 8 then Some (NewFunc 3 4 (nestedM env0 7 1 (firstn 2) cMm)) else env0 h.
Lemma nv_c19_error_4_firstn :
  vm_func envX (CFn 8) 4 [i 6; u 0; i 99] = Fail edivz.
Proof.
  destruct c19_error as (_ & _ & _ & E4).
  refine (proj2 (E4 env0 envX 7 1 (firstn 2) 8 3 4 (nestedM env0 7 1 (firstn 2) cMm) [] [i 6; u 0; i 99] 4 edivz dfn
                    eq_refl eq_refl eq_refl eq_refl _ eq_refl _) eq_refl); [|lia].
  right; right; eexists; reflexivity.
Qed.

(* The lemmas below mention model values (mkV -> as_float), hence Print Assumptions lists Coq's
   primitive float / int63 operations (kernel primitives, the same list that Props/C19.v prints for
   c19_call etc.); no logical axiom.  Even nv_frame_ok_other lists `float : Set`, because [cell] contains
   [value] whose [num] has a primitive-float constructor: no statement over Model/Call.v can print
   "Closed under the global context". *)
Print Assumptions nv_frame_ok_other.
Print Assumptions nv_c19_error_4.
Print Assumptions nv_c19_func_2.
Print Assumptions nv_c19_method_23.
Print Assumptions nv_c19_call_4.
Print Assumptions nv_c19_call_5.
Print Assumptions nv_c19_method_24.
Print Assumptions nv_c19_error_4_firstn.
