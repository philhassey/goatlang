(* non-vacuity witnesses for Props/C16.v *)
From Coq Require Import ZArith List String Bool Permutation Sorted Lia.
From GV Require Import Model.TreeSort Gen.Tables_gen Proofs.C16_sort.
From GV Require Props.C16.
Import ListNotations.
Open Scope string_scope.
Open Scope Z_scope.

(* top-level nodes: (symbol, identity); priority from the generated table *)
Definition node := (string * nat)%type.
Definition np (x : node) : Z := prio_of priority (fst x).
Definition hoistable (x : node) : bool := String.eqb (fst x) "function" || String.eqb (fst x) "method" || String.eqb (fst x) "type".
(* two layouts of one package: hoistable declarations permuted / moved across "files", the rest in sequence *)
Definition lay1 : list node :=
  [("package", 0); ("var", 1); ("function", 2); ("const", 3); ("method", 4); ("call", 5); ("function", 6); ("init", 7); ("type", 8);
   ("import", 9); ("method", 10); ("var", 11); ("function", 12); ("const", 13)]%nat.
Definition lay2 : list node :=
  [("package", 0); ("function", 12); ("method", 10); ("var", 1); ("const", 3); ("type", 8); ("call", 5); ("init", 7);
   ("import", 9); ("function", 2); ("var", 11); ("function", 6); ("const", 13); ("method", 4)]%nat.
Lemma lay_equiv : hoist_equiv np hoistable lay1 lay2.
Proof.
  split; [vm_compute; reflexivity|]. intro p.
  destruct (Z.eq_dec p 50) as [->|N50].
  { vm_compute. apply Permutation_sym.
    apply (Permutation_cons_app [("function", 2%nat); ("function", 6%nat)] [] ("function", 12%nat)). apply Permutation_refl. }
  destruct (Z.eq_dec p 60) as [->|N60]. { vm_compute. apply perm_swap. }
  destruct (Z.eq_dec p 80) as [->|N80]. { vm_compute. apply Permutation_refl. }
  cbn -[Z.eqb]. replace (50 =? p) with false by lia. replace (60 =? p) with false by lia. replace (80 =? p) with false by lia. constructor.
Qed.
(* c16_layout_invariant applied: hoist_equiv np hoistable lay1 lay2 *)
Lemma nv_c16_layout_invariant :
  filter (fun x => negb (hoistable x)) (tree_sort np lay1) = filter (fun x => negb (hoistable x)) (tree_sort np lay2) /\
  filter (fun x => negb (hoistable x)) (tree_sort np lay1) =
    [("package", 0); ("import", 9); ("const", 3); ("const", 13); ("var", 1); ("call", 5); ("var", 11); ("init", 7)]%nat /\
  Permutation (filter (fun x => hoistable x && (np x =? 50)) (tree_sort np lay1)) (filter (fun x => hoistable x && (np x =? 50)) (tree_sort np lay2)) /\
  tree_sort np lay1 <> tree_sort np lay2.
Proof.
  destruct (C16.c16_layout_invariant np hoistable lay1 lay2 lay_equiv) as (A & B & _).
  split; [exact A|]. split; [vm_compute; reflexivity|]. split; [exact (B 50)|]. vm_compute. discriminate.
Qed.
(* c16_sort_unique: StronglySorted l', stability equations *)
Lemma nv_c16_sort_unique :
  let l := [("var", 1); ("function", 2); ("const", 3); ("function", 6); ("var", 11)]%nat in
  let l' := [("const", 3); ("function", 2); ("function", 6); ("var", 1); ("var", 11)]%nat in
  l' = tree_sort np l.
Proof.
  intros l l'. apply (C16.c16_sort_unique np).
  - unfold l'. repeat (constructor; [|repeat constructor; vm_compute; discriminate]). constructor.
  - intro p. unfold l, l'.
    destruct (Z.eq_dec p 0) as [->|N0]; [reflexivity|]. destruct (Z.eq_dec p 50) as [->|N50]; [reflexivity|].
    destruct (Z.eq_dec p 70) as [->|N70]; [reflexivity|].
    cbn -[Z.eqb]. replace (0 =? p) with false by lia. replace (50 =? p) with false by lia. replace (70 =? p) with false by lia. reflexivity.
Qed.
(* c16_join is the definition of join_files unfolded (reflexivity) *)
Lemma remark_c16_join_definitional : forall (A : Type) (f : list A) (r : list (list A)),
  join_files (f :: r) = (f ++ List.concat (map (@tl A) r))%list.
Proof. reflexivity. Qed.
