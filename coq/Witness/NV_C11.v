(* Witnesses for Props/C11.v (slices).

   Every theorem of Props/C11.v is a closed statement (no Section, no Hypothesis); the premises are
   the antecedents of the individual conjuncts.  This file instantiates each premise set with a
   concrete, NON-trivial witness: a state reached after literal / reslice / element write / append
   within the capacity / append beyond the capacity / overlapping copy (state [s1]: two backing
   arrays, five variables, four of them sharing array 0), a continuation history [os_more] with
   every kind of statement (ONil OLit OMake OSlice OSet OAppend{SpN,SpV,SpS} OCopy OCopyStr), three
   PANICKING statements, a growing append on a []uint8 and an append on a nil variable, and applies
   the Props theorems to them. *)
From Coq Require Import ZArith List Bool Lia Arith.
From GV Require Import GoSpec.GoPrim GoSpec.GoSlice GoSpec.GoSliceHist Gen.ValueOps_gen Model.Slice
  Proofs.C11_goslice Proofs.C11_slice Props.C11.
Import ListNotations.
Open Scope Z_scope.

Definition i32 (n : Z) : value := mkValue TypeInt32 (Zn n) PNone.
Definition u8 (n : Z) : value := mkValue TypeUint8 (Zn n) PNone.
Definition un (n : Z) : value := mkValue untypedInt (Zn n) PNone.
Definition nl : value := mkValue TypeNil (Zn 0) PNone.
Definition str (s : list Z) : value := mkValue TypeString (Zn 0) (PStr s).

Definition s0 : state := ([], repeat (GNil (fn_sliceType TypeInt32)) 5).

(* the history of Props/C11.v c11_witness *)
Definition os_pre : list op :=
  [OLit 0 TypeInt32 [un 1; un 2; un 3; un 4]; OSlice 1 0 (un 1) (un 3); OSet 1 (un 0) (un 20);
   OAppend 2 1 [un 99] SpN 8; OAppend 3 0 [un 7] SpN 8; OSlice 4 0 (un 1) nl; OCopy 4 0].

(* continuation: every kind of statement, three panicking ones, spreads, nil variable, growth *)
Definition os_more : list op :=
  [OSet 0 (un 9) (un 1);                      (* panics: index 9 of a 4-element slice *)
   OSlice 1 3 (un 2) (un 9);                  (* panics: 9 > cap 8 *)
   OMake 1 TypeUint8 (un (-1));               (* panics: negative length *)
   OMake 1 TypeUint8 (un 2);                  (* x1 = make([]uint8, 2) *)
   OAppend 1 1 [un 300] (SpS [104; 105]) 16;  (* x1 = append(x1, 300-as-uint8, "hi"...) : grows, cap 16 *)
   OCopyStr 1 [120; 121];                     (* copy(x1, "xy") *)
   ONil 2 TypeInt32;                          (* x2 = nil *)
   OAppend 2 2 [un 5] (SpV 3) 0;              (* x2 = append(x2 (nil), 5, x3...) *)
   OAppend 4 3 [un 8; un 9] SpN 0;            (* x4 = append(x3, 8, 9): within the capacity of x3 *)
   OSlice 0 3 (un 0) (un 8);                  (* x0 = x3[0:8]: up to the capacity, last cell never written *)
   OCopy 0 2;                                 (* copy(x0, x2) *)
   OLit 3 TypeString [str [97]];              (* x3 = []string{"a"} *)
   OSet 3 (un 0) (str [98])].                 (* x3[0] = "b" *)

Definition os_all : list op := (os_pre ++ os_more)%list.

(* the reachable state after os_pre: arrays [1;1;20;3] and [1;20;3;99;7;nil;nil;nil];
   x0 = (0,0,4,4) x1 = (0,1,2,3) x2 = (0,1,3,3) x3 = (1,0,5,8) x4 = (0,1,3,3) *)
Definition s1 : state := Eval vm_compute in run s0 os_pre.
Lemma s1_reached : run s0 os_pre = s1.
Proof. vm_compute. reflexivity. Qed.
Lemma s1_shape :
  fst s1 = [[i32 1; i32 1; i32 20; i32 3]; [i32 1; i32 20; i32 3; i32 99; i32 7; nilV; nilV; nilV]] /\
  snd s1 = [GSl TypeInt32 (SMk 0 0 4 4); GSl TypeInt32 (SMk 0 1 2 3); GSl TypeInt32 (SMk 0 1 3 3);
            GSl TypeInt32 (SMk 1 0 5 8); GSl TypeInt32 (SMk 0 1 3 3)].
Proof. split; reflexivity. Qed.

Definition s2 : state := Eval vm_compute in run s1 os_more.
Lemma s2_reached : run s0 os_all = s2 /\ run s1 os_more = s2.
Proof. split; vm_compute; reflexivity. Qed.

(* boolean checkers for the store predicates (reflection) *)

Definition isnilVb (v : value) : bool :=
  match v with mkValue 0 (Zn 0) PNone => true | _ => false end.
Lemma isnilVb_sound v : isnilVb v = true -> v = nilV.
Proof.
  destruct v as [t n p]. unfold isnilVb.
  destruct t; try (intros H; discriminate H).
  destruct n as [z|f]; try (intros H; discriminate H).
  destruct z; try (intros H; discriminate H).
  destruct p; try (intros H; discriminate H). reflexivity.
Qed.

Definition sokb (v : value) : bool :=
  (negb (vt v =? untypedInt) && negb (vt v =? TypeNil)) || isnilVb v.
Lemma sokb_sound v : sokb v = true -> sok v.
Proof.
  unfold sokb. intros H. apply orb_prop in H as [H|H].
  - apply andb_prop in H as [H1 H2]. apply negb_true_iff in H1, H2. apply Z.eqb_neq in H1, H2.
    left. split; assumption.
  - right. apply isnilVb_sound. exact H.
Qed.

Definition tcellb (t : Z) (v : value) : bool := (vt v =? t) || isnilVb v.
Lemma tcellb_sound t v : tcellb t v = true -> tcell t v.
Proof.
  unfold tcellb. intros H. apply orb_prop in H as [H|H].
  - left. apply Z.eqb_eq. exact H.
  - right. apply isnilVb_sound. exact H.
Qed.

Fixpoint chk (pb : nat -> value -> bool) (k : nat) (st : vstore) : bool :=
  match st with [] => true | x :: r => forallb (pb k) x && chk pb (S k) r end.
Lemma chk_sound (P : nat -> value -> Prop) pb : (forall a v, pb a v = true -> P a v) ->
  forall (st : vstore) k, chk pb k st = true -> forall a i v, cell st a i = Some v -> P (k + a)%nat v.
Proof.
  intros HP st. induction st as [|x r IH]; intros k H a i v E.
  - apply cell_lt in E. inversion E.
  - cbn [chk] in H. apply andb_prop in H as [H1 H2]. destruct a as [|a].
    + unfold cell, array in E. cbn [nth] in E. apply nth_error_In in E.
      rewrite forallb_forall in H1. rewrite Nat.add_0_r. apply HP, H1, E.
    + rewrite Nat.add_succ_r. exact (IH (S k) H2 a i v E).
Qed.

Lemma store_ok_dec (st : vstore) : chk (fun _ => sokb) 0 st = true -> store_ok st.
Proof.
  intros H a i v E.
  exact (chk_sound (fun _ v => sok v) (fun _ => sokb) (fun _ v Hv => sokb_sound v Hv) st 0%nat H a i v E).
Qed.
Lemma tcells_dec aty (st : vstore) :
  chk (fun a => tcellb (nth a aty 0)) 0 st = true ->
  forall a i v, cell st a i = Some v -> tcell (nth a aty 0) v.
Proof.
  intros H a i v E.
  exact (chk_sound (fun a v => tcell (nth a aty 0) v) (fun a => tcellb (nth a aty 0))
           (fun a v Hv => tcellb_sound _ v Hv) st 0%nat H a i v E).
Qed.

(* solver for the vm_compute'd side conditions (op_wf, op_nilsafe, op_typed, compat, scalar): after
   evaluation they are conjunctions and disjunctions of True, c = c, n <= m on numerals, and
   implications from a false equation *)
Ltac slv :=
  solve [ constructor; slv | right; slv | intros; discriminate ].

(* Inv s1, proved DIRECTLY from the definition (not through c11_inv) *)
Lemma inv_s1 : Inv s1.
Proof.
  split.
  - apply store_ok_dec. vm_compute. reflexivity.
  - intros x Hx. change (length (snd s1)) with 5%nat in Hx.
    do 5 (destruct x as [|x]; [split; [cbn; lia|unfold scalar, nillableMin; cbn; lia]|]). lia.
Qed.
(* ... and the same through c11_inv: the initial state satisfies Inv, every step keeps it *)
Lemma inv_run_from_props os : forall s, Inv s -> hist_ok s os -> Inv (run s os).
Proof.
  induction os as [|o os IH]; intros s HI Hh; [exact HI|].
  destruct Hh as (Hw & _ & Hr). cbn [run fold_left]. apply IH; [|exact Hr].
  exact (proj1 (proj2 c11_inv s o HI Hw)).
Qed.

(* TInv with a NON-empty ghost typing [int32; int32] of the two arrays of s1 *)
Lemma tinv_s1 : TInv [TypeInt32; TypeInt32] s1.
Proof.
  split; [reflexivity|split].
  - apply tcells_dec. vm_compute. reflexivity.
  - intros x Hx. change (length (snd s1)) with 5%nat in Hx.
    do 5 (destruct x as [|x]; [reflexivity|]). lia.
Qed.

Lemma hist_pre : hist_ok s0 os_pre /\ hist_typed s0 os_pre.
Proof. vm_compute. slv. Qed.
Lemma hist_more : hist_ok s1 os_more /\ hist_typed s1 os_more.
Proof. vm_compute. slv. Qed.
Lemma hist_all : hist_ok s0 os_all /\ hist_typed s0 os_all.
Proof. vm_compute. slv. Qed.

(* three statements of os_more really panic, on both sides *)
Lemma more_panics :
  step_res s1 (OSet 0 (un 9) (un 1)) = Panic /\ go_step_res 0 (abs s1) (OSet 0 (un 9) (un 1)) = Panic /\
  step_res s1 (OSlice 1 3 (un 2) (un 9)) = Panic /\ go_step_res 0 (abs s1) (OSlice 1 3 (un 2) (un 9)) = Panic /\
  step_res s1 (OMake 1 TypeUint8 (un (-1))) = Panic /\ go_step_res 0 (abs s1) (OMake 1 TypeUint8 (un (-1))) = Panic.
Proof. vm_compute. repeat split. Qed.

(* conjunct 2 on the reachable state s1, one statement of every kind (the first is a panicking one) *)
Lemma nv_c11_inv :
  Forall (fun o => Inv (step s1 o) /\ length (snd (step s1 o)) = 5%nat)
    [OSet 0 (un 9) (un 1); OSet 0 (un 3) (un 1); ONil 2 TypeBool; OLit 3 TypeString [str [97]];
     OMake 1 TypeUint8 (un 2); OSlice 0 3 (un 0) (un 8); OAppend 4 3 [un 8; un 9] SpN 0;
     OAppend 4 0 [un 8; un 9] (SpV 3) 32; OAppend 1 1 [] (SpS [104]) 0; OCopy 4 0; OCopyStr 1 [120]].
Proof.
  repeat (constructor; [apply (proj2 c11_inv s1 _ inv_s1); vm_compute; slv|]). constructor.
Qed.
(* Inv of the final state, obtained only from c11_inv *)
Lemma nv_c11_inv_run : Inv s2.
Proof.
  rewrite <- (proj1 s2_reached). apply inv_run_from_props; [exact (proj1 c11_inv 5%nat)|exact (proj1 hist_all)].
Qed.

Fixpoint all_steps (P : state -> op -> Prop) (s : state) (os : list op) : Prop :=
  match os with [] => True | o :: r => P s o /\ all_steps P (step s o) r end.

(* conjunct 1 along a whole history (uses c11_inv to carry Inv) *)
Lemma refine_all_steps os : forall s, Inv s -> hist_ok s os ->
  all_steps (fun s o => exists cap, abs_res (step_res s o) = go_step_res cap (abs s) o) s os.
Proof.
  induction os as [|o os IH]; intros s HI Hh; [exact I|].
  destruct Hh as (Hw & Hn & Hr). split.
  - exact (proj1 c11_refine s o HI Hw Hn).
  - apply IH; [exact (proj1 (proj2 c11_inv s o HI Hw))|exact Hr].
Qed.

(* every statement of os_all (20 statements, 3 of them panic) is matched by Go's step *)
Lemma nv_c11_refine_1 :
  all_steps (fun s o => exists cap, abs_res (step_res s o) = go_step_res cap (abs s) o) s0 os_all.
Proof. apply refine_all_steps; [exact (proj1 c11_inv 5%nat)|exact (proj1 hist_all)]. Qed.

(* conjunct 2: the whole history, from the initial state and from the reachable state s1 *)
Lemma nv_c11_refine_2 :
  go_run (abs s0) os_all (abs s2) /\ go_run (abs s1) os_more (abs s2).
Proof.
  split.
  - rewrite <- (proj1 s2_reached). apply (proj1 (proj2 c11_refine)); [exact (proj1 c11_inv 5%nat)|exact (proj1 hist_all)].
  - rewrite <- (proj2 s2_reached). apply (proj1 (proj2 c11_refine)); [exact inv_s1|exact (proj1 hist_more)].
Qed.
(* the final state is not a degenerate one *)
Lemma s2_cells :
  cells (fst s2) (gdata (pget (snd s2) 0)) = [i32 5; i32 1; i32 20; i32 3; i32 99; i32 7; i32 9; nilV] /\
  cells (fst s2) (gdata (pget (snd s2) 1)) = [u8 120; u8 121; u8 44; u8 104; u8 105] /\
  cells (fst s2) (gdata (pget (snd s2) 2)) = [i32 5; i32 1; i32 20; i32 3; i32 99; i32 7] /\
  cells (fst s2) (gdata (pget (snd s2) 3)) = [str [98]] /\
  cells (fst s2) (gdata (pget (snd s2) 4)) = [i32 5; i32 1; i32 20; i32 3; i32 99; i32 7; i32 9] /\
  length (fst s2) = 6%nat.
Proof. vm_compute. repeat split. Qed.

(* the capacity argument of Go's step matters for appends only: [exists cap] cannot be used to make
   any other statement return something else *)
Lemma nv_cap_only_append c1 c2 gs o :
  (forall x y vs sp c, o <> OAppend x y vs sp c) -> go_step_res c1 gs o = go_step_res c2 gs o.
Proof.
  intros H. destruct gs as [st p]. destruct o; try reflexivity. exfalso. eapply H. reflexivity.
Qed.
(* ... and for an append it only fixes the capacity (and the number of spare nil cells) of a NEW array *)
Lemma nv_cap_append cap (st : vstore) d vs :
  append_ nilV (fun _ _ => cap) st d vs =
  if (slen d + length vs <=? scap d)%nat
  then append_ nilV (fun _ _ => 0%nat) st d vs
  else let n := (slen d + length vs)%nat in
       ((st ++ [cells st d ++ vs ++ repeat nilV (Nat.max n cap - n)])%list, SMk (length st) 0 n (Nat.max n cap)).
Proof. unfold append_. destruct (slen d + length vs <=? scap d)%nat; reflexivity. Qed.

(* op_nilsafe is a real restriction (finding F1 of Proofs/C11_slice.v): without it conjunct 1 is false *)
Lemma nv_nilsafe_needed :
  ~ exists cap, abs_res (step_res s0 (OAppend 0 0 [] SpN 0)) = go_step_res cap (abs s0) (OAppend 0 0 [] SpN 0).
Proof. intros [cap H]. vm_compute in H. discriminate H. Qed.

(* conjuncts 3-6 (conjunct 5 has the premise wf_slice) on s1 *)
Lemma nv_c11_refine_5 :
  let st := fst s1 in let g := pget (snd s1) 3 in
  map snd (Value_Range st g) = [i32 1; i32 20; i32 3; i32 99; i32 7] /\
  map fst (Value_Range st g) = [fn_Int 0; fn_Int 1; fn_Int 2; fn_Int 3; fn_Int 4].
Proof.
  cbv zeta.
  assert (W : wf_slice (fst s1) (gdata (pget (snd s1) 3))) by (cbn; lia).
  destruct (proj1 (proj2 (proj2 (proj2 (proj2 c11_refine)))) (fst s1) (pget (snd s1) 3) W) as [A B].
  rewrite A, B. split; reflexivity.
Qed.

Definition g3 : gval := GSl TypeInt32 (SMk 1 0 5 8).          (* = pget (snd s1) 3 *)
Definition h_al : gval := GSl TypeInt32 (SMk 1 1 3 7).        (* = g3[1:4] *)
Definition st_sub : vstore :=                                  (* after h_al[1] = 55 *)
  Eval vm_compute in match Value_Set (fst s1) h_al (un 1) (un 55) with Ok s => s | _ => [] end.
Definition st_par : vstore :=                                  (* after g3[2] = 66 *)
  Eval vm_compute in match Value_Set (fst s1) g3 (un 2) (un 66) with Ok s => s | _ => [] end.

Lemma g3_is_x3 : pget (snd s1) 3 = g3.  Proof. reflexivity. Qed.
Lemma wf_g3 : wf_slice (fst s1) (gdata g3).  Proof. cbn. lia. Qed.

Lemma nv_c11_alias_1 :
  Value_Slice g3 1 4 = Ok h_al /\ Value_Set (fst s1) h_al (un 1) (un 55) = Ok st_sub /\
  elemty h_al = elemty g3 /\
  Value_Get st_sub g3 (un 2) = Ok (i32 55) /\
  (forall m, Value_Int m <> 2 -> Value_Get st_sub g3 m = Value_Get (fst s1) g3 m).
Proof.
  assert (R : Value_Slice g3 1 4 = Ok h_al) by reflexivity.
  assert (S : Value_Set (fst s1) h_al (un 1) (un 55) = Ok st_sub) by (vm_compute; reflexivity).
  assert (E : Value_Int (un 2) = 1 + Value_Int (un 1)) by reflexivity.
  assert (L : 1 + Value_Int (un 1) < Z.of_nat (Value_Len g3)) by (vm_compute; reflexivity).
  destruct (proj1 c11_alias (fst s1) g3 1 4 h_al (un 1) (un 55) st_sub (un 2) wf_g3 R S E L) as (A & B & C).
  repeat split; try assumption.
Qed.

Lemma nv_c11_alias_2 :
  Value_Set (fst s1) g3 (un 2) (un 66) = Ok st_par /\
  Value_Get st_par h_al (un 1) = Ok (i32 66) /\
  (forall m, Value_Int m <> 1 -> Value_Get st_par h_al m = Value_Get (fst s1) h_al m).
Proof.
  assert (R : Value_Slice g3 1 4 = Ok h_al) by reflexivity.
  assert (S : Value_Set (fst s1) g3 (un 2) (un 66) = Ok st_par) by (vm_compute; reflexivity).
  assert (K : 0 <= Value_Int (un 1) < 4 - 1) by (vm_compute; split; [discriminate|reflexivity]).
  assert (E : Value_Int (un 2) = 1 + Value_Int (un 1)) by reflexivity.
  destruct (proj2 c11_alias (fst s1) g3 1 4 h_al (un 1) (un 66) st_par (un 2) wf_g3 R K E S) as (A & B).
  repeat split; assumption.
Qed.

Definition my_grow (c n : nat) : nat := (2 * c + 3)%nat.       (* a non-trivial growth oracle *)

Lemma store_ok_s1 : store_ok (fst s1).
Proof. apply store_ok_dec. vm_compute. reflexivity. Qed.
Lemma scalar_i32 : scalar TypeInt32.
Proof. unfold scalar, nillableMin, TypeInt32. lia. Qed.

(* conjunct 1: append(x1, 5, 6)?  x1 = (0,1,2,3) has room for ONE more: append(x1, 5) is in place and is
   seen by x0 (as x0[3]), x2 and x4 (as [2]), which share array 0 *)
Lemma nv_c11_append_1 :
  let st' := arr_write (fst s1) 0 (1 + 2) (map (assign_to TypeInt32) [un 5]) in
  Value_Append my_grow (fst s1) (GSl TypeInt32 (SMk 0 1 2 3)) [un 5] 0 = (st', GSl TypeInt32 (SMk 0 1 3 3)) /\
  cell st' 0 3 = Some (i32 5) /\ cell st' 0 2 = cell (fst s1) 0 2 /\ cell st' 1 3 = cell (fst s1) 1 3 /\
  Value_Get st' (pget (snd s1) 0) (un 3) = Ok (i32 5) /\
  Value_Get st' (pget (snd s1) 2) (un 2) = Ok (i32 5) /\
  Value_Get st' (pget (snd s1) 4) (un 2) = Ok (i32 5).
Proof.
  cbv zeta.
  assert (W : wf_slice (fst s1) (SMk 0 1 2 3)) by (cbn; lia).
  assert (C : (2 + length [un 5] <= 3)%nat) by (cbn; lia).
  destruct (proj1 (c11_append my_grow) (fst s1) TypeInt32 0%nat 1%nat 2%nat 3%nat [un 5] store_ok_s1 W scalar_i32 C)
    as [A B].
  split; [exact A|]. rewrite !B. vm_compute. repeat split.
Qed.

(* conjunct 2: append(x0, 7, 8) with x0 = (0,0,4,4) full: new array 2 of capacity my_grow 4 6 = 11 *)
Lemma nv_c11_append_2 :
  let r := Value_Append my_grow (fst s1) (GSl TypeInt32 (SMk 0 0 4 4)) [un 7; un 8] 0 in
  array (fst r) 0 = array (fst s1) 0 /\ array (fst r) 1 = array (fst s1) 1 /\
  cells (fst r) (SMk 0 1 3 3) = cells (fst s1) (SMk 0 1 3 3) /\
  cells (fst r) (SMk 1 0 5 8) = cells (fst s1) (SMk 1 0 5 8) /\
  snd r = GSl TypeInt32 (SMk 2 0 6 11) /\
  cells (fst r) (gdata (snd r)) = [i32 1; i32 1; i32 20; i32 3; i32 7; i32 8].
Proof.
  cbv zeta.
  assert (W : wf_slice (fst s1) (SMk 0 0 4 4)) by (cbn; lia).
  assert (C : (scap (SMk 0 0 4 4) < slen (SMk 0 0 4 4) + length [un 7; un 8])%nat) by (cbn; lia).
  pose proof (proj2 (c11_append my_grow) (fst s1) TypeInt32 (SMk 0 0 4 4) [un 7; un 8] store_ok_s1 W scalar_i32 C) as H.
  cbv zeta in H. destruct H as (A & B & (c' & E & Hc) & D).
  split; [apply A; cbn; lia|]. split; [apply A; cbn; lia|].
  split; [apply B; cbn; lia|]. split; [apply B; cbn; lia|].
  split; [vm_compute; reflexivity|]. rewrite D. vm_compute. reflexivity.
Qed.

(* conjunct 1 with overlapping ranges: copy(x4, x0), x4 = x0[1:] on the same array; conjunct 2 *)
Lemma nv_c11_copy_1 :
  let a := pget (snd s1) 4 in let b := CSlice (pget (snd s1) 0) in
  snd (code_copy (fst s1) a b) = 3%nat /\
  cells (fst (code_copy (fst s1) a b)) (gdata a) = [i32 1; i32 1; i32 20] /\
  cells (fst (code_copy (fst s1) a b)) (gdata (pget (snd s1) 0)) = [i32 1; i32 1; i32 1; i32 20] /\
  length (csrc_vals (fst s1) b) = 4%nat.
Proof.
  cbv zeta.
  assert (W : wf_slice (fst s1) (gdata (pget (snd s1) 4))) by (cbn; lia).
  assert (W0 : wf_slice (fst s1) (gdata (pget (snd s1) 0))) by (cbn; lia).
  pose proof (proj1 c11_copy (fst s1) (pget (snd s1) 4) (CSlice (pget (snd s1) 0)) W) as H.
  cbv zeta in H. destruct H as [A B].
  pose proof (proj1 (proj2 c11_copy) (fst s1) (pget (snd s1) 0) W0) as L.
  rewrite A, B, L. vm_compute. repeat split.
Qed.
(* string source into a []uint8 of the final state s2 (shorter source than destination) *)
Lemma nv_c11_copy_str :
  let a := pget (snd s2) 1 in
  snd (code_copy (fst s2) a (CStr [65; 66])) = 2%nat /\
  cells (fst (code_copy (fst s2) a (CStr [65; 66]))) (gdata a) = [u8 65; u8 66; u8 44; u8 104; u8 105].
Proof.
  cbv zeta.
  assert (W : wf_slice (fst s2) (gdata (pget (snd s2) 1))) by (cbn; lia).
  pose proof (proj1 c11_copy (fst s2) (pget (snd s2) 1) (CStr [65; 66]) W) as H.
  cbv zeta in H. destruct H as [A B]. rewrite A, B. vm_compute. repeat split.
Qed.

Lemma nv_c11_bounds :
  let st := fst s1 in let g := pget (snd s1) 0 in     (* len 4, cap 4 *)
  (Value_Get st g (un 4) = Panic /\ Value_Get st g (un (-1)) = Panic) /\
  (exists v, Value_Get st g (un 3) = Ok v) /\
  (Value_Set st g (un 4) (un 0) = Panic /\ Value_Set st g (un (-1)) (un 0) = Panic) /\
  (exists st', Value_Set st g (un 3) (un 0) = Ok st') /\
  (Value_Slice g 1 5 = Panic /\ Value_Slice g 3 2 = Panic /\ Value_Slice g (-1) 2 = Panic /\
   Value_Slice g3 2 9 = Panic) /\
  (exists h, Value_Slice g3 2 8 = Ok h /\ Value_Len h = 6%nat /\ elemty h = TypeInt32) /\
  (code_slice g (un 5) nl = Panic /\ code_slice g (un (-2)) (un 1) = Panic /\ code_slice g3 (un 0) (un 9) = Panic) /\
  code_make st TypeInt32 (un (-3)) = Panic.
Proof.
  cbv zeta. destruct c11_bounds as (B1 & B2 & B3 & B4 & B5 & B6 & B7 & B8).
  assert (W : wf_slice (fst s1) (gdata (pget (snd s1) 0))) by (cbn; lia).
  split; [split; apply B1; vm_compute; intros [H1 H2]; first [apply H1; reflexivity|discriminate H2]|].
  split; [apply B2; [exact W|vm_compute; split; [discriminate|reflexivity]]|].
  split; [split; apply B3; vm_compute; intros [H1 H2]; first [apply H1; reflexivity|discriminate H2]|].
  split; [apply B4; vm_compute; split; [discriminate|reflexivity]|].
  split; [repeat split; apply B5; unfold gcapn; cbn; lia|].
  split; [apply (B6 g3 2 8); unfold gcapn; cbn; lia|].
  split; [repeat split; apply B7; cbv zeta; unfold gcapn; vm_compute;
          intros [[H1 H2] H3]; first [apply H1; reflexivity|apply H2; reflexivity|apply H3; reflexivity]|].
  apply B8. vm_compute. reflexivity.
Qed.

Lemma nv_c11_nil :
  let t := fn_sliceType TypeUint8 in
  code_append my_grow (fst s1) (GNil t) [un 300; u8 7] =
    ((fst s1 ++ [[u8 44; u8 7]])%list, GSl TypeUint8 (SMk 2 0 2 2)) /\
  Value_Slice (GNil t) 0 0 = Ok (GSl TypeUint8 SNil) /\ Value_Slice (GNil t) 0 1 = Panic /\
  code_copy (fst s1) (GNil t) (CSlice g3) = (fst s1, 0%nat) /\
  Type_value t = TypeUint8.
Proof.
  cbv zeta. destruct (c11_nil (fn_sliceType TypeUint8)) as (_ & _ & _ & A & R & C & V).
  rewrite A, !R, C, (V TypeUint8) by (unfold TypeUint8; lia). repeat split.
Qed.

Lemma nv_c11_elemty_123 :
  vt (Value_assign (un 300) TypeUint8) = TypeUint8 /\ Value_assign (un 300) TypeUint8 = u8 44 /\
  sok (Value_assign nl TypeString) /\ sok (Value_assign (un 3) TypeBool) /\
  Value_assign (i32 5) TypeInt32 = i32 5 /\ Value_assign nilV TypeInt32 = nilV.
Proof.
  destruct c11_elemty as (E1 & E2 & E3 & _).
  assert (Sb : scalar TypeBool) by (unfold scalar, nillableMin, TypeBool; lia).
  assert (Ss : scalar TypeString) by (unfold scalar, nillableMin, TypeString; lia).
  split; [apply E1; right; split; [reflexivity|unfold numeric_tag; auto 6]|].
  split; [reflexivity|]. split; [apply E2; exact Ss|]. split; [apply E2; exact Sb|].
  split; apply E3; try exact scalar_i32; [left; split; discriminate|right; reflexivity].
Qed.

(* conjunct 4 with a NON-empty ghost typing, from the reachable state s1, over os_more; the result
   (x0 of the final state) contains a never-written nil cell INSIDE its length: the second disjunct
   of tcell is needed (finding F2) *)
Lemma nv_c11_elemty_4 :
  forall x, (x < 5)%nat ->
  Forall (tcell (elemty (pget (snd s2) x))) (cells (fst s2) (gdata (pget (snd s2) x))).
Proof.
  destruct c11_elemty as (_ & _ & _ & E4 & _).
  pose proof (E4 os_more s1 [TypeInt32; TypeInt32] inv_s1 tinv_s1 (proj2 hist_more)) as H.
  rewrite (proj2 s2_reached) in H. exact H.
Qed.
(* the same from the initial state with the empty typing (conjuncts 4 and 6) *)
Lemma nv_c11_elemty_46 :
  forall x, (x < 5)%nat ->
  Forall (tcell (elemty (pget (snd s2) x))) (cells (fst s2) (gdata (pget (snd s2) x))).
Proof.
  destruct c11_elemty as (_ & _ & _ & E4 & _ & E6 & _).
  pose proof (E4 os_all s0 [] (proj1 c11_inv 5%nat) (E6 5%nat) (proj2 hist_all)) as H.
  rewrite (proj1 s2_reached) in H. exact H.
Qed.
(* conjunct 5 *)
Lemma nv_c11_elemty_5 :
  forall x, Forall sok (cells (fst s2) (gdata (pget (snd s2) x))).
Proof.
  destruct c11_elemty as (_ & _ & _ & _ & E5 & _).
  pose proof (E5 os_all s0 (proj1 c11_inv 5%nat) (proj1 hist_all)) as H.
  rewrite (proj1 s2_reached) in H. exact H.
Qed.
Lemma nv_c11_elemty_4_concrete :
  elemty (pget (snd s2) 1) = TypeUint8 /\ elemty (pget (snd s2) 3) = TypeString /\
  Forall (tcell TypeUint8) [u8 120; u8 121; u8 44; u8 104; u8 105] /\
  nth_error (cells (fst s2) (gdata (pget (snd s2) 0))) 7 = Some nilV.
Proof.
  pose proof (nv_c11_elemty_4 1%nat ltac:(lia)) as H.
  rewrite (proj1 (proj2 s2_cells)) in H.
  split; [reflexivity|]. split; [reflexivity|]. split; [exact H|reflexivity].
Qed.

(* tcell is NOT so permissive that conjunct 4 is trivial: its conclusion fails after an ill-typed
   history (hist_ok holds, hist_typed does not): x0 = []uint8{int32(5)} keeps an int32 in a []uint8 *)
Lemma nv_c11_elemty_4_not_trivial :
  let os := [OLit 0 TypeUint8 [i32 5]] in
  hist_ok s0 os /\ ~ hist_typed s0 os /\
  ~ Forall (tcell (elemty (pget (snd (run s0 os)) 0))) (cells (fst (run s0 os)) (gdata (pget (snd (run s0 os)) 0))).
Proof.
  cbv zeta. split; [vm_compute; slv|]. split.
  - intros (_ & H & _). cbn in H. inversion H as [|? ? [C|[C _]] _]; discriminate C.
  - intros H. vm_compute in H. inversion H as [|? ? [C|C] _]; discriminate C.
Qed.

Print Assumptions nv_c11_refine_1.
Print Assumptions nv_c11_refine_2.
Print Assumptions nv_c11_elemty_4.
Print Assumptions nv_c11_append_2.
Print Assumptions nv_c11_alias_1.
