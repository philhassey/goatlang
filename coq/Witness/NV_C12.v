(* non-vacuity witnesses for Props/C12.v: premise `Inv vzero m` on a table that is REACHABLE (built by Set / Delete from
   newIntMap), has crossed a growth threshold, holds collision chains and wrapped-around probe sequences *)
From Coq Require Import ZArith List Bool Lia.
From GV Require Import Model.IntMap Proofs.C12_intmap.
From GV Require Props.C12.
Import ListNotations.

Definition asg (new old : Z) : Z := (if old <? 0 then - Z.abs new else Z.abs new)%Z.   (* "keeps the declared type" = the sign *)
Definition set_all (ks : list Z) (m : option (@imap Z)) : option (@imap Z) :=
  fold_left (fun m k => match m with Some m => set 0%Z m k (k * 7 - 100)%Z | None => None end) ks m.
Lemma set_all_inv : forall ks m, Inv 0%Z m -> exists m', set_all ks (Some m) = Some m' /\ Inv 0%Z m'.
Proof.
  induction ks as [|k ks IH]; intros m I; [exists m; split; [reflexivity|exact I]|].
  destruct (C12.c12_set 0%Z asg m k (k * 7 - 100)%Z I) as (m' & E & I' & _).
  unfold set_all. cbn [fold_left]. rewrite E. exact (IH m' I').
Qed.
(* 15 keys = 15 mod 16 (one long chain wrapping around the end of the table), 10 more that force growth to 32 and 64 cells *)
Definition keys12 : list Z := (map (fun i => Z.of_nat (16 * i + 15)) (seq 0 15) ++ map (fun i => Z.of_nat (64 * i + 63)) (seq 3 12) ++ [-1; -17; 0])%Z.
Definition m12 : option (@imap Z) := Eval vm_compute in set_all keys12 (Some (newIntMap 0%Z 0)).
Lemma m12_inv : exists m, m12 = Some m /\ Inv 0%Z m /\ size m = 64 /\ len m = 30.
Proof.
  destruct (set_all_inv keys12 (newIntMap 0%Z 0) (proj1 (C12.c12_new 0%Z asg 0))) as (m & E & I).
  exists m. change (set_all keys12 (Some (newIntMap 0%Z 0))) with m12 in E. split; [exact E|]. split; [exact I|].
  unfold m12 in E. inversion E. split; reflexivity.
Qed.
(* covers c12_budget, c12_set, c12_assign, c12_delete, c12_len (all: Inv vzero m) *)
Lemma nv_c12_all : exists m, m12 = Some m /\ Inv 0%Z m /\
  (exists r, get 0%Z m 12345%Z = Some r) /\
  (exists m', assign 0%Z asg m (-17)%Z 5%Z = Some m' /\ Inv 0%Z m' /\ find 0%Z m' (-17)%Z = Some (-5)%Z /\ find 0%Z m' 15%Z = Some 5%Z) /\
  (exists m', assign 0%Z asg m 1%Z 5%Z = Some m' /\ find 0%Z m' 1%Z = None /\ len m' = 30) /\
  (exists m', delete 0%Z m 63%Z = Some m' /\ Inv 0%Z m' /\ find 0%Z m' 63%Z = None /\ find 0%Z m' 127%Z = Some 789%Z /\ len m' = 29) /\
  (exists ks, NoDup ks /\ length ks = 30 /\ (In 831%Z ks <-> find 0%Z m 831%Z <> None)).
Proof.
  destruct m12_inv as (m & E & I & Sz & Ln). exists m. split; [exact E|]. split; [exact I|].
  unfold m12 in E. injection E as Em.
  split; [exact (C12.c12_budget 0%Z asg m 12345%Z I)|].
  split. { destruct (C12.c12_assign 0%Z asg m (-17)%Z 5%Z I) as (m' & A & I' & F & O & _). exists m'. split; [exact A|]. split; [exact I'|].
           rewrite F, O by discriminate. subst m. split; vm_compute; reflexivity. }
  split. { destruct (C12.c12_assign 0%Z asg m 1%Z 5%Z I) as (m' & A & I' & F & O & L). exists m'. split; [exact A|].
           rewrite F, L. subst m. split; vm_compute; reflexivity. }
  split. { destruct (C12.c12_delete 0%Z asg m 63%Z I) as (m' & A & I' & F & O & L). exists m'. split; [exact A|]. split; [exact I'|].
           split; [exact F|]. rewrite O, L by discriminate. subst m. split; vm_compute; reflexivity. }
  destruct (C12.c12_len 0%Z asg m I) as (ks & N & L & M). exists ks. split; [exact N|]. split; [rewrite L; exact Ln|]. apply M.
Qed.
(* find's default is not what makes c12_delete / c12_assign true: on the reachable table a key that is present is found,
   and deletion down to the shrink threshold (64 -> 32 -> 16 cells) keeps every remaining key *)
Lemma nv_c12_shrink : exists m, m12 = Some m /\
  match fold_left (fun m k => match m with Some m => delete 0%Z m k | None => None end) (firstn 25 keys12) (Some m) with
  | Some m' => size m' = 16 /\ len m' = 5 /\ map (find 0%Z m') (skipn 25 keys12) = map (fun k => Some (k * 7 - 100)%Z) (skipn 25 keys12)
               /\ map (find 0%Z m') (firstn 25 keys12) = repeat None 25
  | None => False
  end.
Proof. eexists. split; [reflexivity|]. vm_compute. repeat split; reflexivity. Qed.
