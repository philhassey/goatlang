(* Witnesses for Props/C03.v.
   Every theorem of Props/C03.v that has premises is instantiated with a concrete, non-trivial witness; the
   Props theorem is applied to it and the concrete outcome is computed next to it.  Lemmas named remark_*
   say why the second disjunct of c03_hang has to name the components of the entry. *)
From Coq Require Import ZArith List String Bool Lia PeanoNat.
From GV Require Import GoSpec.GoPrec Model.Pratt Model.PrattInst Model.Loader Model.Lookup Model.IntMap
  Model.PeepTypes Model.VM Model.Peephole Model.Host Model.Cursor Gen.Tables_gen
  Proofs.C08_lookup Proofs.C12_intmap Proofs.C03_host Proofs.C03_term Proofs.C03_cursor Props.C03.
Import ListNotations.
Open Scope string_scope.

Definition keys5 : list string := ["nil"; "true"; "false"; "#eval"; "#"].

Lemma keys5_ok : keys_ok keys5.
Proof. split; [discriminate|]. repeat constructor; discriminate. Qed.

Lemma keys5_stamped : forall l c, stamped keys5 (new_pos 3 4 l c).
Proof. intros l c. right. exists 3%Z, 4%Z, l, c. cbn. repeat split; lia. Qed.

(* a VM state at the moment of a panic: three instructions on lines 1, 70000 and 10^9, frame.N as given,
   a backtrace with a zero entry and two stamped entries *)
Definition panic_state (n : Z) : vmstate :=
  mkVmstate keys5 [new_pos 3 4 1 1; new_pos 3 4 70000 1; new_pos 3 4 1000000000 1000000] n
            [0%Z; new_pos 3 4 2 2; new_pos 4 3 65536 65536].

Lemma panic_state_ok : forall n, vmstate_ok (panic_state n).
Proof.
  intros n. split; [exact keys5_ok|]. split.
  - constructor; [apply keys5_stamped|]. constructor; [apply keys5_stamped|]. constructor; [apply keys5_stamped|constructor].
  - constructor; [left; reflexivity|]. constructor; [apply keys5_stamped|]. constructor; [|constructor].
    right. exists 4%Z, 3%Z, 65536%Z, 65536%Z. split; [reflexivity|]. cbn [panic_state vkeys keys5 List.length]. lia.
Qed.

(* the code of the top package as codeDump sees it *)
Definition code2 : list dins :=
  [mkDins (new_pos 3 4 1 1) [0%Z; 4%Z]; mkDins (new_pos 3 4 70000 7) []; mkDins 0%Z [2%Z]].

Lemma code2_ok : forall dump, comp_beh_ok dump (CRet keys5 code2).
Proof.
  intros dump _. split; [exact keys5_ok|]. unfold code2.
  constructor; [split; [apply keys5_stamped|reflexivity]|].
  constructor; [split; [apply keys5_stamped|reflexivity]|].
  constructor; [split; [left; reflexivity|reflexivity]|constructor].
Qed.

(* source trees *)
Definition imp (alias path : string) : tree :=
  TNode "import" "import" [TNode "(name)" alias []; TNode "(string)" path []].
Definition stmts1 : list tree :=
  [imp "a" """a"""; imp "fmt" """fmt"""; TNode "/" "/" [TNode "(name)" "x" []; TNil]; TNode "(int)" "1" []].

(* a file system with a small import graph: "a" imports "b" and "c", "b" imports "c", "fmt" is native *)
Definition graph1 (p : string) : option (list string) :=
  if String.eqb p """a""" then Some ["""b"""; """c"""]
  else if String.eqb p """b""" then Some ["""c"""]
  else if String.eqb p """c""" then Some []
  else None.
(* the nodes of the imported packages; "c" has no nodes at all, "b" contains a nil operand *)
Definition nodes1 (p : string) : list tree :=
  if String.eqb p """c""" then [] else [TNode "=" "=" [TNode "(name)" "v" []; TNil]].
Definition files1 : files_beh := FRet graph1 nodes1 50.

Definition toks1 : list Host.tok := [mkTok "(name)" "x"; mkTok "/" "/"; mkTok ";" ";"].
Definition all_on : options := mkOpt true true false.

Lemma eval_hyps_of : forall o sc pb fb ci ri c r,
  sc <> ScanPanic -> run_beh_ok ri -> comp_beh_ok (code_dump o) c -> run_beh_ok r ->
  eval_hyps o (mkEvalAdv sc pb fb ci ri c r).
Proof. intros. constructor; assumption. Qed.

Ltac solve_hyp :=
  first [discriminate | exact I | apply code2_ok | apply panic_state_ok | exact keys5_ok].

(* 1. everything works until the script panics with frame.N far beyond the end of the code: btErr runs,
      clamps N, prints three positions; the result is a prefixed error.  Both dumps are on, the source has
      two imports (one on disk with its own imports, one native) and a nil operand. *)
Definition eval_adv_run_panic : eval_adv :=
  mkEvalAdv (ScanOk toks1) (PRet stmts1) files1 (CRet keys5 []) RRet (CRet keys5 code2) (RPanic (panic_state 999)).

Lemma nv_c03_contain_eval_1 :
  entry_hyps (EEval false all_on eval_adv_run_panic) /\
  (forall w, entry_model unq_go (EEval false all_on eval_adv_run_panic) <> Escape w) /\
  entry_model unq_go (EEval false all_on eval_adv_run_panic) = Err "error in run: ".
Proof.
  assert (H : entry_hyps (EEval false all_on eval_adv_run_panic)).
  { apply eval_hyps_of; [discriminate|exact I|apply code2_ok|apply panic_state_ok]. }
  split; [exact H|]. split; [exact (c03_contain unq_go _ H)|]. vm_compute. reflexivity.
Qed.

(* 2. one adversary per recover handler / error path of Eval: a scanner error, a panic in parse, a panic while
      reading imported packages, a panic in the compiler of the imports (c.cur nil and non-nil), a panic while
      running the imports (negative frame.N), a panic in the compiler of the top package, an import cycle *)
Definition eval_advs : list (eval_adv * outcome) :=
  [ (mkEvalAdv (ScanErr toks1) (PRet stmts1) files1 (CRet keys5 []) RRet (CRet keys5 code2) RRet, Err "error in tokenize: ");
    (mkEvalAdv (ScanOk toks1) PPanic files1 (CRet keys5 []) RRet (CRet keys5 code2) RRet, Err "error in parse: ");
    (mkEvalAdv (ScanOk toks1) (PRet stmts1) FPanic (CRet keys5 []) RRet (CRet keys5 code2) RRet, Err "error in loadImports: ");
    (mkEvalAdv (ScanOk toks1) (PRet (TNil :: stmts1)) files1 (CRet keys5 []) RRet (CRet keys5 code2) RRet, Err "error in loadImports: ");
    (mkEvalAdv (ScanOk toks1) (PRet stmts1) (FRet (fun p => if String.eqb p """a""" then Some ["""a"""] else None) nodes1 50)
               (CRet keys5 []) RRet (CRet keys5 code2) RRet, Err "error in loadImports: ");
    (mkEvalAdv (ScanOk toks1) (PRet stmts1) files1 (CPanic true) RRet (CRet keys5 code2) RRet, Err "error in compile (imports): ");
    (mkEvalAdv (ScanOk toks1) (PRet stmts1) files1 (CPanic false) RRet (CRet keys5 code2) RRet, Err "error in compile (imports): ");
    (mkEvalAdv (ScanOk toks1) (PRet stmts1) files1 (CRet keys5 []) (RPanic (panic_state (-3))) (CRet keys5 code2) RRet, Err "error in run (imports): ");
    (mkEvalAdv (ScanOk toks1) (PRet stmts1) files1 (CRet keys5 []) RRet (CPanic true) RRet, Err "error in compile: ");
    (mkEvalAdv (ScanOk toks1) (PRet stmts1) files1 (CRet keys5 []) RRet (CRet keys5 code2) (RPanic (panic_state 1)), Err "error in run: ");
    (mkEvalAdv (ScanOk toks1) (PRet stmts1) files1 (CRet keys5 []) RRet (CRet keys5 code2) RRet, Ok) ].

Lemma nv_c03_contain_eval_2 : forall nilfs,
  Forall (fun ao => entry_hyps (EEval nilfs all_on (fst ao)) /\
                    forall w, entry_model unq_go (EEval nilfs all_on (fst ao)) <> Escape w) eval_advs /\
  Forall (fun ao => entry_model unq_go (EEval false all_on (fst ao)) = snd ao) eval_advs.
Proof.
  intros nilfs.
  assert (H : Forall (fun ao => entry_hyps (EEval nilfs all_on (fst ao))) eval_advs).
  { unfold eval_advs.
    repeat (apply Forall_cons; [cbn [fst entry_hyps]; apply eval_hyps_of; solve_hyp|]). apply Forall_nil. }
  split.
  - apply Forall_forall. intros ao Hin. rewrite Forall_forall in H. split; [apply H; exact Hin|].
    apply c03_contain. apply H. exact Hin.
  - repeat (apply Forall_cons; [vm_compute; reflexivity|]). apply Forall_nil.
Qed.

Definition load_adv_run_panic : load_adv :=
  mkLoadAdv (TopRet stmts1) files1 (CRet keys5 code2) (RPanic (panic_state (-1))) 0.

Lemma nv_c03_contain_load_1 :
  entry_hyps (ELoad false "main" all_on load_adv_run_panic) /\
  (forall w, entry_model unq_go (ELoad false "main" all_on load_adv_run_panic) <> Escape w) /\
  entry_model unq_go (ELoad false "main" all_on load_adv_run_panic) = Err "error in run: ".
Proof.
  assert (H : entry_hyps (ELoad false "main" all_on load_adv_run_panic)).
  { constructor; [apply code2_ok|apply panic_state_ok]. }
  split; [exact H|]. split; [exact (c03_contain unq_go _ H)|]. vm_compute. reflexivity.
Qed.

Definition load_advs : list (load_adv * outcome) :=
  [ (mkLoadAdv TopErr files1 (CRet keys5 code2) RRet 0, Err "error in load: ");
    (mkLoadAdv TopPanic files1 (CRet keys5 code2) RRet 0, Err "error in load: ");    (* `*package`: recoverLoad *)
    (mkLoadAdv (TopRet stmts1) FPanic (CRet keys5 code2) RRet 0, Err "error in load: ");
    (mkLoadAdv (TopRet stmts1) FErr (CRet keys5 code2) RRet 0, Err "error in load: ");
    (mkLoadAdv (TopRet [imp "x" """\400"""]) files1 (CRet keys5 code2) RRet 0, Err "error in load: ");
    (mkLoadAdv (TopRet stmts1) files1 (CPanic false) RRet 0, Err "error in compile: ");
    (mkLoadAdv (TopRet stmts1) files1 (CRet keys5 code2) (RPanic (panic_state 2)) 0, Err "error in run: ");
    (mkLoadAdv (TopRet stmts1) files1 (CRet keys5 code2) RRet 2, Err "error in run: ");
    (mkLoadAdv (TopRet stmts1) files1 (CRet keys5 code2) RRet 0, Ok);
    (mkLoadAdv (TopRet []) files1 (CRet keys5 code2) RRet 0, Ok) ].

Lemma nv_c03_contain_load_2 : forall nilfs pkg,
  Forall (fun ao => entry_hyps (ELoad nilfs pkg all_on (fst ao)) /\
                    forall w, entry_model unq_go (ELoad nilfs pkg all_on (fst ao)) <> Escape w) load_advs /\
  Forall (fun ao => entry_model unq_go (ELoad false "main" all_on (fst ao)) = snd ao) load_advs.
Proof.
  intros nilfs pkg.
  assert (H : Forall (fun ao => entry_hyps (ELoad nilfs pkg all_on (fst ao))) load_advs).
  { unfold load_advs.
    repeat (apply Forall_cons; [cbn [fst entry_hyps]; constructor; solve_hyp|]). apply Forall_nil. }
  split.
  - apply Forall_forall. intros ao Hin. rewrite Forall_forall in H. split; [apply H; exact Hin|].
    apply c03_contain. apply H. exact Hin.
  - repeat (apply Forall_cons; [vm_compute; reflexivity|]). apply Forall_nil.
Qed.

(* a panic inside the called function with frame.N beyond / before / inside the code; a bad result slice
   (more results requested than the stack holds, a negative count); a good call *)
Definition func_cases : list (Z * func_beh * outcome) :=
  [ (1%Z, FnPanic (panic_state 100), Err "");
    (1%Z, FnPanic (panic_state (-100)), Err "");
    (0%Z, FnPanic (panic_state 2), Err "");
    (5%Z, FnRet 3 keys5, Err "");
    ((-1)%Z, FnRet 3 keys5, Err "");
    (2%Z, FnRet 3 keys5, Ok) ].

Lemma nv_c03_contain_func :
  Forall (fun c => let '(x, b, _) := c in
            func_beh_ok b /\ entry_hyps (ECall x b) /\ entry_hyps (EFunc x b) /\
            (forall w, entry_model unq_go (ECall x b) <> Escape w) /\
            (forall w, entry_model unq_go (EFunc x b) <> Escape w) /\
            (forall w, func_model x b <> Escape w)) func_cases /\
  map (fun c => let '(x, b, _) := c in entry_model unq_go (EFunc x b)) func_cases = map snd func_cases /\
  map (fun c => let '(x, b, _) := c in entry_model unq_go (ECall x b)) func_cases = map snd func_cases.
Proof.
  assert (H : Forall (fun c => let '(x, b, _) := c in func_beh_ok b) func_cases).
  { unfold func_cases. repeat (apply Forall_cons; [solve_hyp|]). apply Forall_nil. }
  split.
  - apply Forall_forall. intros [[x b] o] Hin. rewrite Forall_forall in H. specialize (H _ Hin). cbn in H.
    split; [exact H|]. split; [exact H|]. split; [exact H|].
    split; [exact (c03_contain unq_go (ECall x b) H)|].
    split; [exact (c03_contain unq_go (EFunc x b) H)|exact (c03_inv_func x b H)].
  - split; vm_compute; reflexivity.
Qed.

(* the hypotheses are needed and the conclusion is not true by construction: the model does produce Escape as
   soon as one of them is dropped *)
Lemma nv_c03_contain_hyps_needed :
  (* the scanner panics *)
  eval_model unq_go false all_on
    (mkEvalAdv ScanPanic (PRet stmts1) files1 (CRet keys5 []) RRet (CRet keys5 code2) RRet) = Escape "tokenize" /\
  (* a position whose function index is outside the key table, code dump on *)
  eval_model unq_go false all_on
    (mkEvalAdv (ScanOk toks1) (PRet stmts1) files1 (CRet keys5 []) RRet (CRet keys5 [mkDins (new_pos 3 9 1 1) []]) RRet)
    = Escape "codeDump" /\
  (* ... the same adversary is harmless when the dump is off *)
  eval_model unq_go false (mkOpt true false false)
    (mkEvalAdv (ScanOk toks1) (PRet stmts1) files1 (CRet keys5 []) RRet (CRet keys5 [mkDins (new_pos 3 9 1 1) []]) RRet)
    = Ok /\
  (* an operand of instruction.String outside the table *)
  eval_model unq_go false all_on
    (mkEvalAdv (ScanOk toks1) (PRet stmts1) files1 (CRet keys5 []) RRet (CRet keys5 [mkDins 0%Z [5%Z]]) RRet)
    = Escape "codeDump" /\
  (* an empty key in the table *)
  eval_model unq_go false all_on
    (mkEvalAdv (ScanOk toks1) (PRet stmts1) files1 (CRet keys5 []) RRet (CRet keys5 code2)
       (RPanic (mkVmstate ["nil"; ""; "x"] [new_pos 1 2 1 1] 0 []))) = Escape "btErr" /\
  (* the argument package of Load panics while it is read: a load error, no hypothesis needed (from /repo
     commit 8db5477 on) *)
  load_model unq_go false "main" all_on (mkLoadAdv TopPanic files1 (CRet keys5 code2) RRet 0)
    = Err "error in load: " /\
  (* an unstamped backtrace entry in Func *)
  func_model 0 (FnPanic (mkVmstate keys5 [] 0 [new_pos 7 7 1 1])) = Escape "btErr" /\
  (* Func returning on an empty key table *)
  func_model 1 (FnRet 0 []) = Escape "btErr".
Proof. vm_compute. repeat split; reflexivity. Qed.

Lemma nv_c03_loader_contained :
  let top := TNode "" "_" stmts1 in
  load_imports_model unq_go false "" top FPanic = SErr /\
  load_imports_model unq_go false "" (TNode "" "_" [imp "x" """\400"""]) files1 = SErr /\
  load_imports_model unq_go false "" (TNode "" "_" [TNode "import" "import" [TNode "(name)" "x" []; TNil]]) files1 = SErr /\
  (exists pkgs, load_imports_model unq_go false "" top files1 = SOk pkgs /\ List.length pkgs = 5%nat) /\
  (exists pkgs, load_imports_model unq_go true "" top FPanic = SOk pkgs /\ List.length pkgs = 3%nat) /\
  forall fb w, load_imports_model unq_go false "" top fb <> SEscape w.
Proof.
  cbv zeta. split; [vm_compute; reflexivity|]. split; [vm_compute; reflexivity|]. split; [vm_compute; reflexivity|].
  split; [eexists; split; vm_compute; reflexivity|]. split; [eexists; split; vm_compute; reflexivity|].
  intros fb w. apply c03_loader_contained.
Qed.

(* covers c03_prefix: one Err instance per stage prefix (all seven prefixes occur) *)
Lemma nv_c03_prefix :
  (forall ao, In ao eval_advs -> forall p, snd ao = Err p ->
     eval_model unq_go false all_on (fst ao) = Err p /\ exists st, In (p, st) eval_prefixes) /\
  incl (map (fun ps => Err (fst ps)) eval_prefixes) (map snd eval_advs).
Proof.
  split.
  - intros ao Hin p Hp.
    pose proof (proj2 (nv_c03_contain_eval_2 false)) as Hm. rewrite Forall_forall in Hm.
    pose proof (Hm ao Hin) as E. cbn [entry_model] in E.
    rewrite Hp in E. split; [exact E|]. exact (c03_prefix _ _ _ _ _ E).
  - vm_compute. intros x Hx. repeat (destruct Hx as [<-|Hx]; [tauto|]). destruct Hx.
Qed.

(* covers c03_prefix_load: load / compile / run prefixes, including "unexpected returns" *)
Lemma nv_c03_prefix_load :
  (forall ao, In ao load_advs -> forall p, snd ao = Err p ->
     load_model unq_go false "main" all_on (fst ao) = Err p /\ exists st, In (p, st) load_prefixes) /\
  incl (map (fun ps => Err (fst ps)) load_prefixes) (map snd load_advs).
Proof.
  split.
  - intros ao Hin p Hp.
    pose proof (proj2 (nv_c03_contain_load_2 false "main")) as Hm. rewrite Forall_forall in Hm.
    pose proof (Hm ao Hin) as E. cbn [entry_model] in E.
    rewrite Hp in E. split; [exact E|]. exact (c03_prefix_load _ _ _ _ _ _ E).
  - vm_compute. intros x Hx. repeat (destruct Hx as [<-|Hx]; [tauto|]). destruct Hx.
Qed.

(* first disjunct (s = SRun): the script of the top package, or of an imported package, does not return;
   second disjunct (s = SLoad): the discovery budget the adversary hands to loadImports is too small for the
   graph (budget 2; graph1 needs 6).  Eval, Load, Call and Func. *)
Definition eval_adv_with (fb : files_beh) (ri r : run_beh) : eval_adv :=
  mkEvalAdv (ScanOk toks1) (PRet stmts1) fb (CRet keys5 []) ri (CRet keys5 code2) r.
Definition files_small : files_beh := FRet graph1 nodes1 2.

Lemma nv_c03_hang :
  entry_model unq_go (EEval false all_on (eval_adv_with files1 RRet RHang)) = Hang SRun /\
  entry_model unq_go (EEval false all_on (eval_adv_with files1 RHang RRet)) = Hang SRun /\
  entry_model unq_go (ELoad false "main" all_on (mkLoadAdv (TopRet stmts1) files1 (CRet keys5 code2) RHang 0)) = Hang SRun /\
  entry_model unq_go (ECall 1 FnHang) = Hang SRun /\ entry_model unq_go (EFunc 1 FnHang) = Hang SRun /\
  entry_model unq_go (EEval false all_on (eval_adv_with files_small RRet RRet)) = Hang SLoad /\
  entry_model unq_go (ELoad false "main" all_on (mkLoadAdv (TopRet stmts1) files_small (CRet keys5 code2) RRet 0)) = Hang SLoad.
  (* what c03_hang says about them: nv_c03_hang_tied below *)
Proof.
  repeat (split; [vm_compute; reflexivity|]). vm_compute; reflexivity.
Qed.

(* a nil file system, or a source without imports, never hangs in the loader whatever the budget is *)
Lemma nv_c03_hang_nilfs :
  entry_model unq_go (EEval true all_on (eval_adv_with (FRet graph1 nodes1 0) RRet RRet)) = Ok /\
  entry_model unq_go (EEval false all_on
     (mkEvalAdv (ScanOk toks1) (PRet [TNode "(int)" "1" []]) (FRet graph1 nodes1 0) (CRet keys5 []) RRet (CRet keys5 code2) RRet)) = Ok.
Proof. split; vm_compute; reflexivity. Qed.

(* c03_hang_load: the premise occurs (small budget) and the theorem applies *)
Lemma nv_c03_hang_load :
  let top := TNode "" "_" stmts1 in
  load_imports_model unq_go false "" top files_small = SHang /\
  exists p ps imports nodes budget, false = false /\ top_imports unq_go (kids_of top) = Some (p :: ps) /\
    files_small = FRet imports nodes budget /\
    load (fun q => if String.eqb q "" then Some (p :: ps) else imports q) budget "" = LoadFuel.
Proof.
  cbv zeta. assert (E : load_imports_model unq_go false "" (TNode "" "_" stmts1) files_small = SHang) by (vm_compute; reflexivity).
  split; [exact E|]. exact (c03_hang_load _ _ _ _ _ E).
Qed.

(* the "real" hang: a file system on which every package p imports p ++ "x" -- an infinite import graph.  The
   loader model hangs for EVERY budget; no finite closed U exists, so c03_terminates_load does not apply. *)
Definition inf_graph (p : string) : option (list string) := Some [p ++ "x"].

Lemma mem_shorter : forall q l, (forall v, In v l -> (String.length v < String.length q)%nat) -> mem q l = false.
Proof.
  intros q l. induction l as [|x r IH]; intros H; cbn; [reflexivity|].
  rewrite IH by (intros v Hv; apply H; right; exact Hv).
  destruct (String.eqb_spec q x) as [->|_]; [|reflexivity].
  specialize (H x (or_introl eq_refl)). lia.
Qed.

Lemma inf_discover : forall f q d,
  (forall v, In v (map fst (packages d)) -> (String.length v < String.length q)%nat) ->
  discover inf_graph f [q] d = None.
Proof.
  induction f as [|f IH]; intros q d H; cbn [discover]; [reflexivity|].
  rewrite (mem_shorter _ _ H). cbn [inf_graph rev app]. apply IH.
  cbn [packages map fst]. intros v [<-|Hv]; rewrite length_append; cbn [String.length]; [lia|].
  specialize (H v Hv). lia.
Qed.

Lemma nv_c03_hang_load_infinite : forall budget,
  load_imports_model unq_go false "" (TNode "" "_" [imp "x" "x"]) (FRet inf_graph (fun _ => []) budget) = SHang /\
  entry_model unq_go (EEval false all_on
     (mkEvalAdv (ScanOk toks1) (PRet [imp "x" "x"]) (FRet inf_graph (fun _ => []) budget) (CRet keys5 []) RRet (CRet keys5 code2) RRet))
    = Hang SLoad.
Proof.
  intros budget.
  assert (L : load (fun q => if String.eqb q "" then Some ["x"] else inf_graph q) budget "" = LoadFuel).
  { assert (X : forall f todo d, discover (fun q => if String.eqb q "" then Some ["x"] else inf_graph q) f todo d
                              = discover inf_graph f todo d).
    { induction f as [|f IH]; intros todo d; cbn [discover]; [reflexivity|].
      destruct todo as [|q rest]; [reflexivity|].
      destruct (mem q (map fst (packages d))); [apply IH|].
      destruct (String.eqb_spec q "") as [->|_]; cbn [inf_graph append]; apply IH. }
    unfold load. rewrite X, inf_discover; [reflexivity|]. intros v []. }
  assert (E : load_imports_model unq_go false "" (TNode "" "_" [imp "x" "x"]) (FRet inf_graph (fun _ => []) budget) = SHang).
  { unfold load_imports_model. cbn [kids_of imp top_imports odd_paths String.eqb Ascii.eqb Bool.eqb option_map app].
    change (unq_go "x") with true. cbn [option_map orb app]. rewrite L. reflexivity. }
  split; [exact E|].
  cbn [entry_model]. unfold eval_model. cbn [ea_scan ea_parse ea_files tokenize_model toks1 app parse_model bind].
  rewrite E. reflexivity.
Qed.

(* Why both disjuncts of c03_hang name the components of THIS entry: a second disjunct `s = SLoad /\ exists
   nilfs topPkg top fb, load_imports_model unq nilfs topPkg top fb = SHang`, not tied to the entry e, is a closed
   true fact for every unq that accepts one string (the loader model can hang with budget 0), and leaves the
   conclusion `s = SRun \/ s = SLoad`. *)
Lemma remark_c03_loader_can_hang : forall unq x, unq x = true ->
  exists nilfs topPkg top fb, load_imports_model unq nilfs topPkg top fb = SHang.
Proof.
  intros unq x Hx.
  exists false, "", (TNode "" "_" [imp "a" x]), (FRet (fun _ => None) (fun _ => []) 0).
  unfold load_imports_model. cbn [kids_of imp top_imports odd_paths String.eqb Ascii.eqb Bool.eqb].
  rewrite Hx. reflexivity.
Qed.

(* "s is SRun or SLoad" holds by the TYPES of the adversary: the behaviours of the scanner, the parser
   and the compiler have no constructor for "does not return" (said in the comment of c03_hang) *)
Lemma remark_c03_hang_by_construction :
  (forall b, tokenize_model b <> SHang) /\ (forall l b, parse_model l b <> SHang) /\ (forall b, compile_model b <> SHang).
Proof.
  split; [intros []; discriminate|]. split; [intros [|t l] []; discriminate|intros []; discriminate].
Qed.

(* c03_hang applied to the seven hanging entries of nv_c03_hang: each disjunct occurs, and the second one
   names the entry's own tokens / tree / files *)
Lemma nv_c03_hang_tied :
  (let e := EEval false all_on (eval_adv_with files1 RHang RRet) in
   ea_rimp (eval_adv_with files1 RHang RRet) = RHang \/ ea_run (eval_adv_with files1 RHang RRet) = RHang) /\
  (exists toks tree, tokenize_model (ea_scan (eval_adv_with files_small RRet RRet)) = SOk toks /\
     parse_model toks (ea_parse (eval_adv_with files_small RRet RRet)) = SOk tree /\
     load_imports_model unq_go false "" tree (ea_files (eval_adv_with files_small RRet RRet)) = SHang) /\
  (exists nodes, TopRet stmts1 = TopRet nodes /\ load_imports_model unq_go false "main" (TNode "_" "_" nodes) files_small = SHang).
Proof.
  split; [|split].
  - cbv zeta.
    assert (E : entry_model unq_go (EEval false all_on (eval_adv_with files1 RHang RRet)) = Hang SRun) by (vm_compute; reflexivity).
    destruct (c03_hang _ _ _ E) as [[_ H]|[H _]]; [exact H|discriminate].
  - assert (E : entry_model unq_go (EEval false all_on (eval_adv_with files_small RRet RRet)) = Hang SLoad) by (vm_compute; reflexivity).
    destruct (c03_hang _ _ _ E) as [[H _]|[_ H]]; [discriminate|exact H].
  - assert (E : entry_model unq_go (ELoad false "main" all_on (mkLoadAdv (TopRet stmts1) files_small (CRet keys5 code2) RRet 0)) = Hang SLoad)
      by (vm_compute; reflexivity).
    destruct (c03_hang _ _ _ E) as [[H _]|[_ H]]; [discriminate|exact H].
Qed.

Lemma nv_c03_inv_tokens :
  tokenize_model (ScanOk toks1) = SOk (toks1 ++ [eof])%list /\
  (toks1 ++ [eof])%list <> [] /\ last (toks1 ++ [eof])%list eof = eof /\
  forall pb w, parse_model (toks1 ++ [eof])%list pb <> SEscape w.
Proof. split; [reflexivity|]. apply (c03_inv_tokens (ScanOk toks1)). reflexivity. Qed.

Lemma nv_c03_inv_pos_roundtrip :
  pos_file (new_pos 65 66 70000 3) = 65%Z /\ pos_func (new_pos 65 66 70000 3) = 66%Z /\
  pos_file (new_pos 70000 (-5) 1 1) = 65535%Z /\ pos_func (new_pos 70000 (-5) 1 1) = 0%Z.
Proof.
  destruct (c03_inv_pos_roundtrip 65 66 70000 3) as (A & B & C & D).
  destruct (c03_inv_pos_roundtrip 70000 (-5) 1 1) as (A' & B' & _ & _).
  rewrite A, B, A', B', C, D by lia. repeat split; reflexivity.
Qed.

(* a key table with 70000 entries: indices beyond 65535 are clamped INTO the table *)
Definition big_keys : list string := List.repeat "k" (Z.to_nat 70000).

Lemma big_keys_ok : keys_ok big_keys.
Proof.
  split.
  - intros E. apply (f_equal (@List.length string)) in E. unfold big_keys in E. rewrite repeat_length in E. cbn [List.length] in E. lia.
  - apply Forall_forall. intros k Hk. apply repeat_spec in Hk. subst k. discriminate.
Qed.

Lemma nv_c03_inv_pos_string :
  pos_string_ok keys5 (new_pos 3 4 70000 1000000) = true /\
  pos_string_ok keys5 0 = true /\
  pos_string_ok big_keys (new_pos 69999 65536 1 1) = true /\
  (* not trivially true *)
  pos_string_ok keys5 (new_pos 3 5 1 1) = false /\ pos_string_ok ["a"; ""] (new_pos 0 1 1 1) = false.
Proof.
  split; [apply c03_inv_pos_string; [exact keys5_ok|apply keys5_stamped]|].
  split; [apply c03_inv_pos_string; [exact keys5_ok|left; reflexivity]|].
  split; [|split; vm_compute; reflexivity].
  apply c03_inv_pos_string; [exact big_keys_ok|].
  right. exists 69999%Z, 65536%Z, 1%Z, 1%Z. split; [reflexivity|].
  unfold big_keys. rewrite repeat_length. lia.
Qed.

Lemma nv_c03_inv_bterr_total :
  (forall n, bt_err_ok keys5 (vcodes (panic_state n)) n (vbt (panic_state n)) = true) /\
  run_model (RPanic (panic_state 999)) = SErr /\
  (* not trivially true: one unstamped position, or an empty key, and the handler itself panics *)
  bt_err_ok keys5 [new_pos 3 4 1 1; new_pos 3 9 1 1] 7 [] = false /\
  bt_err_ok keys5 [new_pos 3 4 1 1] 0 [new_pos 5 5 1 1] = false /\
  bt_err_ok [] [] (-1) [] = true.
Proof.
  split; [intros n; exact (c03_inv_bterr_total (panic_state n) (panic_state_ok n))|].
  repeat split; vm_compute; reflexivity.
Qed.

Definition graph2 (p : string) : option (list string) :=
  if String.eqb p "top" then Some ["a"; "fmt"; "b"]
  else if String.eqb p "a" then Some ["c"; "b"]
  else if String.eqb p "b" then Some ["c"]
  else if String.eqb p "c" then Some []
  else None.

Lemma nv_c03_inv_pkgs_nonempty :
  load graph2 20 "top" = LoadOk ["c"; "b"; "a"; "fmt"; "top"] /\ ["c"; "b"; "a"; "fmt"; "top"] <> [].
Proof.
  assert (E : load graph2 20 "top" = LoadOk ["c"; "b"; "a"; "fmt"; "top"]) by (vm_compute; reflexivity).
  split; [exact E|]. exact (c03_inv_pkgs_nonempty _ _ _ _ E).
Qed.

Lemma nv_c03_inv_tree_dump :
  dump_one_ok (fix_empty "p" (TNode "" "_" [TNil])) = true /\                       (* "(_ <nil>)" *)
  dump_one_ok (fix_empty "p" (TNode "" "_" [TNode "/" "/" [TNode "(name)" "x" []; TNil]])) = true /\
  dump_one_ok (fix_empty "p" (TNode "x" "y" [])) = true /\                           (* replaced by the synthetic tree *)
  dump_one_ok (fix_empty "" TNil) = true /\
  tstr (fix_empty "p" (TNode "" "_" [TNil])) = "(_ <nil>)" /\
  (* not trivially true: a tree that is not raw_tree_ok *)
  dump_one_ok (fix_empty "p" (TNode "" "" [TNode "" "" []])) = false.
Proof.
  split; [apply c03_inv_tree_dump; right; reflexivity|].
  split; [apply c03_inv_tree_dump; right; reflexivity|].
  split; [apply c03_inv_tree_dump; left; reflexivity|].
  split; [apply c03_inv_tree_dump; left; reflexivity|].
  split; vm_compute; reflexivity.
Qed.
(* c03_inv_func: covered by nv_c03_contain_func (last conjunct of the Forall). *)

(* the Pratt loop on a token list that is NOT a well-formed expression, with goatlang's table and with a
   made-up table; the premise matters: with a budget of 3 the same input does run out of fuel *)
Definition junk : list GoPrec.tok :=
  [TAtom true "1"; TSym "+"; TSym "("; TAtom false "x"; TSym "*"; TSym "-"; TAtom true "3"; TSym ")"; TSym "-"].
Definition my_lbp (s : string) : Z := if String.eqb s "+" then 7%Z else if String.eqb s "*" then 3%Z else 0%Z.

Lemma nv_c03_terminates_pratt :
  Pratt.expr lbp_of infix_of neg_bp compl_bp not_bp commaBP 10 0 junk <> inr PErrFuel /\
  Pratt.expr lbp_of infix_of neg_bp compl_bp not_bp commaBP 10 0 junk = inr PErrSyntax /\
  Pratt.expr my_lbp (fun _ => true) 1 2 3 (-4) 10 0 junk <> inr PErrFuel /\
  Pratt.expr lbp_of infix_of neg_bp compl_bp not_bp commaBP 3 0 junk = inr PErrFuel /\
  goat_parse junk <> inr PErrFuel.
Proof.
  split; [apply c03_terminates_pratt; cbn; lia|]. split; [vm_compute; reflexivity|].
  split; [apply c03_terminates_pratt; cbn; lia|]. split; [vm_compute; reflexivity|].
  apply c03_terminates_parse_expr.
Qed.

(* a successful sub-expression followed by other tokens *)
Lemma nv_c03_expr_consumes :
  let ts := [TAtom true "1"; TSym "+"; TSym "("; TAtom false "x"; TSym "*"; TAtom true "3"; TSym ")"; TSym ")"; TAtom true "9"] in
  Pratt.expr lbp_of infix_of neg_bp compl_bp not_bp commaBP 10 0 ts
    = inl (Bin "+" (Atom true "1") (Paren (Bin "*" (Atom false "x") (Atom true "3"))), [TSym ")"; TAtom true "9"]) /\
  (List.length [TSym ")"; TAtom true "9"] < List.length ts)%nat.
Proof.
  cbv zeta.
  assert (E : Pratt.expr lbp_of infix_of neg_bp compl_bp not_bp commaBP 10 0
     [TAtom true "1"; TSym "+"; TSym "("; TAtom false "x"; TSym "*"; TAtom true "3"; TSym ")"; TSym ")"; TAtom true "9"]
    = inl (Bin "+" (Atom true "1") (Paren (Bin "*" (Atom false "x") (Atom true "3"))), [TSym ")"; TAtom true "9"]))
    by (vm_compute; reflexivity).
  split; [exact E|]. exact (c03_expr_consumes _ _ _ _ _ _ _ _ _ _ _ E).
Qed.

(* the loader's worklist on a graph with a cycle a -> b -> a, a diamond and a native package *)
Definition graph3 (p : string) : option (list string) :=
  if String.eqb p "top" then Some ["a"; "fmt"; "c"]
  else if String.eqb p "a" then Some ["b"; "c"]
  else if String.eqb p "b" then Some ["a"; "c"]
  else if String.eqb p "c" then Some []
  else None.
Definition U3 : list string := ["top"; "a"; "b"; "c"; "fmt"].

Lemma U3_closed : forall q l x, In q U3 -> graph3 q = Some l -> In x l -> In x U3.
Proof.
  intros q l x Hq Hl Hx. unfold U3 in *.
  repeat (destruct Hq as [<-|Hq]; [vm_compute in Hl; inversion Hl; subst l; cbn in Hx; cbn; tauto|]).
  destruct Hq.
Qed.

Lemma U2_closed : forall q l x, In q U3 -> graph2 q = Some l -> In x l -> In x U3.
Proof.
  intros q l x Hq Hl Hx. unfold U3 in *.
  repeat (destruct Hq as [<-|Hq]; [vm_compute in Hl; inversion Hl; subst l; cbn in Hx; cbn; tauto|]).
  destruct Hq.
Qed.

Lemma nv_c03_terminates_load :
  weight graph3 U3 = 7%nat /\
  load graph3 9 "top" <> LoadFuel /\ load graph3 9 "top" = LoadCycle /\          (* the cycle is reported *)
  load graph3 9 "a" <> LoadFuel /\
  load graph2 8 "top" <> LoadFuel /\ load graph2 8 "top" = LoadOk ["c"; "b"; "a"; "fmt"; "top"] /\
  (* the premise matters: a smaller budget is exhausted *)
  load graph3 5 "top" = LoadFuel.
Proof.
  split; [reflexivity|].
  split; [apply (c03_terminates_load graph3 U3 U3_closed); [cbn; tauto|vm_compute; lia]|].
  split; [vm_compute; reflexivity|].
  split; [apply (c03_terminates_load graph3 U3 U3_closed); [cbn; tauto|vm_compute; lia]|].
  split; [apply (c03_terminates_load graph2 U3 U2_closed); [cbn; tauto|vm_compute; lia]|].
  split; vm_compute; reflexivity.
Qed.

(* the scope table with a shadow chain x, ~x, ~~x *)
Definition scope_m : list (string * nat) := [("x", 3%nat); ("~x", 1%nat); ("y", 2%nat); ("~~x", 0%nat)].

Lemma nv_c03_terminates_lookup :
  shadow 50 scope_m "x" = shadow (chain_fuel scope_m) scope_m "x" /\
  unshadow 50 (shadow 50 scope_m "x") "x" = unshadow (chain_fuel (shadow 50 scope_m "x")) (shadow 50 scope_m "x") "x" /\
  shadow 50 scope_m "x" <> scope_m /\
  kget "~~~x" (shadow 50 scope_m "x") = Some 0%nat /\ kget "x" (shadow 50 scope_m "x") = None /\
  (* with fewer units than the chain is long the renaming stops half way *)
  shadow 2 scope_m "x" <> shadow 50 scope_m "x".
Proof.
  split; [apply (c03_terminates_lookup scope_m "x" 50); vm_compute; lia|].
  split; [apply (c03_terminates_lookup (shadow 50 scope_m "x") "x" 50); vm_compute; lia|].
  repeat split; vm_compute; try reflexivity; discriminate.
Qed.

(* the peephole pass on code where two rules fire *)
Definition peep_code : list instr :=
  [mkI (C "codeLocalGet") 1 0 0 11; mkI (C "codeLocalGet") 2 0 0 12; mkI (C "codeAdd") 0 0 0 13;
   mkI (C "codePush") 5 0 0 14; mkI (C "codeGlobalGet") 3 0 0 15; mkI (C "codeCall") 1 1 0 16].

Lemma nv_c03_terminates_peephole :
  do_optimize_fuel 40 peephole_rules peep_code = do_optimize peephole_rules peep_code /\
  List.length (do_optimize peephole_rules peep_code) = 3%nat /\
  map icode (do_optimize peephole_rules peep_code) = [C "codeLocalAdd"; C "codePush"; C "codeFastCall"] /\
  (* with too little fuel the tail is left as it is *)
  do_optimize_fuel 1 peephole_rules peep_code <> do_optimize peephole_rules peep_code.
Proof.
  split; [apply c03_terminates_peephole; cbn; lia|]. repeat split; vm_compute; try reflexivity; discriminate.
Qed.

(* Exec is an inductive (finite-derivation) relation: `exists out k', Exec ...` does express termination.  A
   table with the loop `for { }` has NO run under the oracle that always says "go on", and table_ok rejects it;
   OPanic is a proper outcome (an index panic of p.Next(), recovered by parse), not a fuel value. *)
Definition spin_table (f : nat) : prog := Loop Skip.

Lemma nv_exec_expresses_termination :
  (forall n c k o k', ~ Exec spin_table n (fun _ => true) (Call 0) c k o k') /\
  table_ok spin_table (fun _ => 0%nat) (fun _ => 0%Z) 1 = false.
Proof.
  split; [|vm_compute; reflexivity].
  assert (L : forall n p c k o k', Exec spin_table n (fun _ => true) p c k o k' -> p = Loop Skip -> False).
  { intros n p c k o k' H. induction H; intros E; try discriminate.
    - inversion E; subst. auto.
    - inversion E; subst. inversion H0.
    - inversion E; subst. inversion H0. }
  intros n c k o k' H. inversion H; subst. eapply L; [eassumption|reflexivity].
Qed.

(* Exec is deterministic for a given oracle (proved only here): `exists out k', Exec ...` therefore
   means THE run from (c, k) terminates, which is what the comments of c03_parse_progress_* claim *)
Lemma nv_exec_deterministic : forall tbl n oracle p c k o1 k1, Exec tbl n oracle p c k o1 k1 ->
  forall o2 k2, Exec tbl n oracle p c k o2 k2 -> o1 = o2 /\ k1 = k2.
Proof.
  intros tbl n oracle.
  induction 1; intros o2 k2 X; inversion X; subst; clear X;
  repeat match goal with
  | IH : forall o k, Exec _ _ _ ?p ?c ?k0 o k -> _, H : Exec _ _ _ ?p ?c ?k0 _ _ |- _ =>
      let E := fresh "E" in destruct (IH _ _ H) as [E ?]; clear H; try discriminate E; try (injection E as E); subst
  end; try (split; congruence); try lia; try congruence; auto.
Qed.

(* building concrete runs *)
Lemma E_Call' : forall tbl n oracle f c k o o' k',
  Exec tbl n oracle (tbl f) c k o k' -> ret o = o' -> Exec tbl n oracle (Call f) c k o' k'.
Proof. intros; subst; constructor; assumption. Qed.
Ltac exec_hnf :=
  lazymatch goal with |- Exec ?t ?n ?o ?p ?c ?k ?out ?k' => let p' := eval hnf in p in change (Exec t n o p' c k out k') end.
Ltac exec_run :=
  exec_hnf;
  lazymatch goal with
  | |- Exec _ _ _ Skip _ _ _ _ => apply E_Skip
  | |- Exec _ _ _ Panic _ _ _ _ => apply E_Panic
  | |- Exec _ _ _ Break _ _ _ _ => apply E_Break
  | |- Exec _ _ _ Back2 _ _ _ _ => apply E_Back2
  | |- Exec _ _ _ Next _ _ _ _ => first [apply E_Next; lia | apply E_NextOut; lia]
  | |- Exec _ _ _ (Call _) _ _ _ _ => eapply E_Call'; [exec_run|reflexivity]
  | |- Exec _ _ _ (Choice _ _) _ _ _ _ =>
      first [apply E_ChoiceL; [reflexivity|exec_run] | apply E_ChoiceR; [reflexivity|exec_run]]
  | |- Exec _ _ _ (Seq _ _) _ _ _ _ =>
      first [eapply E_Seq; [exec_run|exec_run] | eapply E_SeqBrk; exec_run | eapply E_SeqPanic; exec_run]
  | |- Exec _ _ _ (Loop _) _ _ _ _ =>
      first [apply E_LoopExit; reflexivity
            | eapply E_LoopIter; [reflexivity|exec_run|exec_run]
            | eapply E_LoopBrk; [reflexivity|exec_run]
            | eapply E_LoopPanic; [reflexivity|exec_run]]
  end.

Definition oracle_of (l : list bool) (dflt : bool) (k : nat) : bool := nth k l dflt.

(* goatlang's table on 3 tokens  `x ; (eof)`-like: parse reads one statement (nudSelf, no led) and leaves the
   loop: a NORMAL outcome with the cursor inside the list; the always-"go on" oracle ends in the index panic *)
Lemma nv_c03_parse_progress_partial :
  (exists out k', Exec goat_table 3 (oracle_of [true; true; false; false] false) (Call F_parse) 0 0 out k' /\ out = ONorm 2) /\
  (exists out k', Exec goat_table 3 (fun _ => true) (Call F_parse) 0 0 out k' /\ out = OPanic) /\
  (exists out k', Exec goat_table 1000 (fun k => Nat.even (k / 3)) (Call F_parse) 0 7 out k' /\
     (forall c', out = ONorm c' -> (0 + 1 <= c' <= 1000)%Z)).
Proof.
  split; [eexists; eexists; split; [exec_run|reflexivity]|].
  split; [eexists; eexists; split; [exec_run|reflexivity]|].
  apply c03_parse_progress_partial. lia.
Qed.

(* a table that is not goatlang's: list := '(' item* ')', item := token | list, written with mutual recursion,
   a call made before any token is consumed (to a lower rank) and a Back2 *)
Definition my_table (f : nat) : prog :=
  match f with
  | 0%nat => Loop (Call 1)                                            (* items: rank 2 *)
  | 1%nat => Choice (Call 2) (Next ;; Opt (Back2 ;; Next ;; Next))    (* item:  rank 1 *)
  | 2%nat => Advance ;; Call 0 ;; Advance                             (* list:  rank 0 *)
  | _ => Panic
  end.
Definition my_rank (f : nat) : nat := match f with 0%nat => 2%nat | 1%nat => 1%nat | _ => 0%nat end.
Definition my_gain (f : nat) : Z := match f with 0%nat => 0%Z | 1%nat => 1%Z | _ => 2%Z end.

Lemma my_table_ok : table_ok my_table my_rank my_gain 3 = true.
Proof. vm_compute. reflexivity. Qed.

Lemma nv_c03_parse_progress_general :
  (* the theorem, on an arbitrary oracle, with a negative start cursor too *)
  (forall oracle f c k, (f < 3)%nat -> (c <= 6)%Z ->
     exists out k', Exec my_table 6 oracle (Call f) c k out k' /\ (forall c', out = ONorm c' -> (c + my_gain f <= c' <= 6)%Z)) /\
  (* a concrete run with a NORMAL outcome:  ( t ( t ) )  from cursor 0 consumes all 6 tokens *)
  (exists out k', Exec my_table 6
      (oracle_of [false; true; false; true; true; true; false; true; false; false; false; false; false; false] false)
      (Call 2) 0 0 out k' /\ out = ONorm 6) /\
  (* the progress check is not vacuous: dropping the `Next` of item, or lowering no rank, is rejected *)
  table_ok (fun f => match f with 1%nat => Choice (Call 2) Skip | _ => my_table f end) my_rank my_gain 3 = false /\
  table_ok my_table (fun _ => 0%nat) my_gain 3 = false.
Proof.
  split; [intros oracle f c k Hf Hc; exact (c03_parse_progress_general _ _ _ _ my_table_ok 6 oracle f c k Hf Hc)|].
  split; [eexists; eexists; split; [exec_run|reflexivity]|].
  split; vm_compute; reflexivity.
Qed.

Lemma nv_c03_goat_table_ok : forallb (fun_ok goat_table goat_rank goat_gain goat_nf) (seq 0 11) = true.
Proof. exact c03_goat_table_ok. Qed.

Lemma nv_c03_depth_bound :
  let ts := [TSym "("; TSym "-"; TAtom true "1"; TSym "*"; TSym "("; TAtom false "x"; TSym ")"; TSym ")"] in
  exprD lbp_of infix_of neg_bp compl_bp not_bp commaBP 9 20 0 ts
    = lift (Pratt.expr lbp_of infix_of neg_bp compl_bp not_bp commaBP 20 0 ts) /\
  (exists t, Pratt.expr lbp_of infix_of neg_bp compl_bp not_bp commaBP 20 0 ts = inl (t, [])) /\
  (* fewer frames than the nesting needs: the depth budget is what fails, so the premise matters *)
  exprD lbp_of infix_of neg_bp compl_bp not_bp commaBP 3 20 0 ts = inr DDepth /\
  (* junk input too *)
  exprD lbp_of infix_of neg_bp compl_bp not_bp commaBP 10 20 0 junk = inr (DErr PErrSyntax).
Proof.
  cbv zeta. split; [apply c03_depth_bound; cbn; lia|].
  split; [eexists; vm_compute; reflexivity|]. split; [vm_compute; reflexivity|].
  rewrite c03_depth_bound by (cbn; lia). vm_compute. reflexivity.
Qed.

Print Assumptions nv_c03_contain_eval_2.
Print Assumptions nv_c03_contain_load_2.
Print Assumptions nv_c03_contain_func.
Print Assumptions nv_c03_hang_load_infinite.
Print Assumptions nv_c03_terminates_load.
Print Assumptions nv_c03_parse_progress_general.
Print Assumptions nv_c03_hang_tied.
